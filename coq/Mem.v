(* Mem.v — memory accesses as result values.  A C++ pointer is [option bytes]
   (None = nullptr, Some b = an allocation of exactly [lenN b] bytes).  Every
   dereference of the C++ is a call to [rd]/[wr]; they return [Fault] exactly
   when the C++ would touch memory outside the allocation or through null.
   Empty ranges never fault (std::copy(p, p, q) is a no-op even for null p). *)
From ElfioV Require Import Bytes.
Local Open Scope N_scope.

Inductive fault :=
| OobRead | OobWrite | NullDeref | DivZero | NullString | UseAfterFree | Hang | PopEmpty | Abort.

Inductive res (A : Type) : Type :=
| Ok (a : A)
| Fault (f : fault).
Arguments Ok {A} a.
Arguments Fault {A} f.

Definition bind {A B} (r : res A) (k : A -> res B) : res B :=
  match r with Ok a => k a | Fault f => Fault f end.
Notation "x <- r ;; k" := (bind r (fun x => k)) (at level 61, r at next level, right associativity).
Notation "' p <- r ;; k" := (bind r (fun p => k)) (at level 61, p pattern, r at next level, right associativity).

Definition is_ok {A} (r : res A) : bool := match r with Ok _ => true | Fault _ => false end.

Definition ptr := option bytes.

Definition rd (p : ptr) (off n : N) : res bytes :=
  if n =? 0 then Ok []
  else match p with
       | None => Fault NullDeref
       | Some b => if off + n <=? lenN b then Ok (sliceN b off n) else Fault OobRead
       end.

Definition wr (p : ptr) (off : N) (bs : bytes) : res ptr :=
  if lenN bs =? 0 then Ok p
  else match p with
       | None => Fault NullDeref
       | Some b => if off + lenN bs <=? lenN b then Ok (Some (overlay b off bs)) else Fault OobWrite
       end.

(* a single word read through a pointer cast: *(T* )(p + off) *)
Definition rd_word (e : endian) (p : ptr) (off : N) (nbytes : nat) : res N :=
  bs <- rd p off (N.of_nat nbytes) ;; Ok (dec_uint e bs).

(* fresh allocation: contents are whatever the allocator left there, given by
   [junk] (index -> byte); theorems quantify over every [junk] *)
Fixpoint iota_pos (start : N) (p : positive) : list N :=
  match p with
  | xH => [start]
  | xO q => iota_pos start q ++ iota_pos (start + Npos q) q
  | xI q => start :: iota_pos (start + 1) q ++ iota_pos (start + 1 + Npos q) q
  end.
Definition iotaN (n : N) : list N := match n with N0 => [] | Npos p => iota_pos 0 p end.
Definition alloc (junk : N -> N) (n : N) : bytes := map junk (iotaN n).

Lemma lenN_iota_pos start p : lenN (iota_pos start p) = Npos p.
Proof.
  revert start; induction p as [q IH|q IH|]; intro start; cbn [iota_pos].
  - rewrite lenN_cons, lenN_app, !IH. lia.
  - rewrite lenN_app, !IH. lia.
  - reflexivity.
Qed.
Lemma lenN_alloc junk n : lenN (alloc junk n) = n.
Proof.
  unfold alloc. rewrite lenN_map. destruct n as [|p]; [reflexivity|]. apply lenN_iota_pos.
Qed.

Lemma rd_ok p off n bs : rd p off n = Ok bs -> lenN bs = n.
Proof.
  unfold rd. destruct (N.eqb_spec n 0) as [->|Hn]; [intros [= <-]; reflexivity|].
  destruct p as [b|]; [|discriminate].
  destruct (N.leb_spec (off + n) (lenN b)); [|discriminate].
  intros [= <-]. unfold sliceN. rewrite lenN_firstnN, lenN_skipnN. lia.
Qed.

Lemma rd_empty p off : rd p off 0 = Ok [].
Proof. reflexivity. Qed.
Lemma wr_empty p off : wr p off [] = Ok p.
Proof. reflexivity. Qed.
Lemma rd_some b off n : off + n <= lenN b -> rd (Some b) off n = Ok (sliceN b off n).
Proof.
  intros H. unfold rd. destruct (N.eqb_spec n 0) as [->|_].
  - unfold sliceN. now rewrite firstnN_0.
  - destruct (N.leb_spec (off + n) (lenN b)); [reflexivity|lia].
Qed.
Lemma wr_some b off bs : off + lenN bs <= lenN b -> wr (Some b) off bs = Ok (Some (overlay b off bs)).
Proof.
  intros H. unfold wr. destruct (N.eqb_spec (lenN bs) 0) as [E|_].
  - apply lenN_0 in E. subst bs. unfold overlay. cbn [lenN length N.of_nat app].
    rewrite N.add_0_r, firstnN_skipnN. reflexivity.
  - destruct (N.leb_spec (off + lenN bs) (lenN b)); [reflexivity|lia].
Qed.
Lemma rd_mid (x y z : bytes) : rd (Some (x ++ y ++ z)) (lenN x) (lenN y) = Ok y.
Proof.
  rewrite rd_some by (rewrite !lenN_app; lia). f_equal.
  replace (lenN x) with (lenN x + 0) at 1 by lia. rewrite sliceN_app_r. apply sliceN_prefix_exact.
Qed.
Lemma wr_mid (x y z bs : bytes) : lenN bs = lenN y ->
  wr (@Some bytes (x ++ y ++ z)) (lenN x) bs = Ok (@Some bytes (x ++ bs ++ z)).
Proof.
  intros H. rewrite wr_some by (rewrite !lenN_app; lia).
  now rewrite (overlay_mid x y z bs (lenN x) eq_refl (eq_sym H)).
Qed.

Lemma rd_at (b y z : bytes) off : skipnN b off = y ++ z -> rd (Some b) off (lenN y) = Ok y.
Proof.
  intros H. destruct (N.le_gt_cases off (lenN b)) as [L|L].
  - rewrite <- (firstnN_skipnN b off), H. replace off with (lenN (firstnN b off)) at 2 by (rewrite lenN_firstnN; lia).
    apply rd_mid.
  - rewrite skipnN_all in H by lia. symmetry in H. apply app_eq_nil in H. destruct H as [-> _]. reflexivity.
Qed.
Lemma rd_word_at e (b z : bytes) off w v :
  skipnN b off = enc_uint e w v ++ z -> v < 256 ^ N.of_nat w -> rd_word e (Some b) off w = Ok v.
Proof.
  intros H Hv. unfold rd_word. rewrite <- (lenN_enc_uint e w v), (rd_at _ _ _ _ H). cbn [bind].
  now rewrite dec_enc_uint_small.
Qed.
Lemma rd_word_some e (b : bytes) off n w : w = N.of_nat n -> off + w <= lenN b ->
  rd_word e (Some b) off n = Ok (dec_uint e (sliceN b off w)).
Proof. intros -> H. unfold rd_word. now rewrite rd_some. Qed.
Lemma bind_Ok {A B} (r : res A) (k : A -> res B) b : bind r k = Ok b -> exists a, r = Ok a /\ k a = Ok b.
Proof. destruct r as [a|f]; [intros H; exists a; auto|discriminate]. Qed.
