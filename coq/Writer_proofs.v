(* Writer_proofs.v — C03/C04: once the sections' data are placed between the headers and the section header
   table, the ranges save() writes (ELF header, program header records, every section's data, every section
   header) are pairwise disjoint, hence each appears verbatim in the saved file. *)
From ElfioV Require Import Bytes Mem Stream Stream_proofs SectionData Elfio Loader Layout Writer Ostream_proofs Codec_proofs Layout_proofs.
Local Open Scope N_scope.

Lemma csize_le s : csize s <= sh_size s.
Proof. unfold csize. destruct (carries s); lia. Qed.

Lemma csize_carried s : csize s <> 0 -> csize s = sh_size s /\ sh_type s <> SHT_NOBITS /\ sh_type s <> SHT_NULL.
Proof.
  unfold csize, carries.
  destruct (N.eqb_spec (sh_type s) SHT_NOBITS); destruct (N.eqb_spec (sh_type s) SHT_NULL); cbn [negb andb]; intros H;
    try contradiction. auto.
Qed.

Lemma csize_nonzero_b s :
  negb (csize s =? 0) = negb (sh_type s =? SHT_NOBITS) && negb (sh_type s =? SHT_NULL) && negb (sh_size s =? 0).
Proof.
  unfold csize, carries. destruct (negb (sh_type s =? SHT_NOBITS) && negb (sh_type s =? SHT_NULL)); cbn [andb]; reflexivity.
Qed.

Set Implicit Arguments.
Record hdr_laid (h h' : ehdr) (phnum phoff shnum shoff : N) : Prop := {
  hl_cls : e_cls h' = e_cls h;
  hl_enc : e_enc h' = e_enc h;
  hl_ident : e_ident h' = e_ident h;
  hl_ehsize : e_ehsize h' = e_ehsize h;
  hl_phentsize : e_phentsize h' = e_phentsize h;
  hl_shentsize : e_shentsize h' = e_shentsize h;
  hl_phnum : e_phnum h' = wrap16 phnum;
  hl_phoff : e_phoff h' = wrap (xw (e_cls h)) phoff;
  hl_shnum : e_shnum h' = wrap16 shnum;
  hl_shoff : e_shoff h' = wrap (xw (e_cls h)) shoff
}.
Unset Implicit Arguments.

Lemma hdr_laid_fields h pn po ns p :
  hdr_laid h (hdr_set (hdr_set (hdr_set (hdr_set (hdr_set h HPhnum pn) HPhoff po) HShnum ns) HShoff 0) HShoff p) pn po ns p.
Proof. split; reflexivity. Qed.

(* the section header table starts at the next multiple of 16 behind the last section, [p] *)
Lemma pad16_bounds p : p < p + (16 - p mod 16) /\ p + (16 - p mod 16) <= p + 16.
Proof. pose proof (N.mod_lt p 16). lia. Qed.

Lemma hdr_laid_shoff_le h h' pn po ns p : hdr_laid h h' pn po ns (p + (16 - p mod 16)) -> e_shoff h' <= p + 16.
Proof. intros H. rewrite (hl_shoff H). pose proof (wrap_le (xw (e_cls h)) (p + (16 - p mod 16))). pose proof (pad16_bounds p). lia. Qed.

Lemma hdr_laid_shoff h h' pn po ns p : hdr_laid h h' pn po ns (p + (16 - p mod 16)) -> p + 16 < 2 ^ xw (e_cls h) ->
  e_shoff h' = p + (16 - p mod 16).
Proof. intros H Hp. rewrite (hl_shoff H). apply wrap_small. pose proof (pad16_bounds p). lia. Qed.

(* byte ranges [start, start+len) *)
Definition rng_disjoint (a b : N * N) : Prop := fst a + snd a <= fst b \/ fst b + snd b <= fst a \/ snd a = 0 \/ snd b = 0.

Lemma rng_disjoint_sym a b : rng_disjoint a b -> rng_disjoint b a.
Proof. unfold rng_disjoint. tauto. Qed.

Definition hdr_range (eh : N) : N * N := (0, eh).
Definition data_range (s : section) : N * N := (sh_offset s, csize s).
Definition shdr_range (shoff es : N) (s : section) : N * N := (shoff + es * s_index s, shdr_size (s_cls s)).

(* positions in the section list are the section indices *)
Fixpoint indexed_from (i : N) (l : list section) : Prop :=
  match l with [] => True | s :: t => s_index s = i /\ indexed_from (i + 1) t end.

Lemma indexed_nth l : forall i k s, indexed_from i l -> nth_optN l k = Some s -> s_index s = i + k.
Proof.
  induction l as [|x t IH]; intros i k s H Hn; cbn [nth_optN] in Hn; [discriminate|].
  cbn [indexed_from] in H. destruct H as [H1 H2]. destruct (N.eqb_spec k 0) as [->|Hk].
  - injection Hn as <-. lia.
  - rewrite (IH (i + 1) (k - 1) s H2 Hn). lia.
Qed.

Lemma indexed_from_Forall2 (R : section -> section -> Prop) : (forall s s', R s s' -> s_index s' = s_index s) ->
  forall l l', Forall2 R l l' -> forall i, indexed_from i l -> indexed_from i l'.
Proof.
  intros HR l l'. induction 1 as [|s s' t t' H HF IH]; intros i Hi; [exact I|]. cbn [indexed_from] in *.
  destruct Hi as [H1 H2]. split; [|now apply IH]. now rewrite (HR s s' H).
Qed.

Set Implicit Arguments.
Record placed (secs : list section) (lo hi : N) : Prop := {
  placed_le : lo <= hi;
  placed_in : forall s, In s secs -> s_index s <> 0 -> lo <= sh_offset s /\ sh_offset s + csize s <= hi;
  placed_apart : forall i j a b, i < j -> nth_optN secs i = Some a -> nth_optN secs j = Some b ->
                   rng_disjoint (data_range a) (data_range b)
}.
Unset Implicit Arguments.

Lemma placed_disjoint secs lo hi : placed secs lo hi ->
  forall i j a b, i <> j -> nth_optN secs i = Some a -> nth_optN secs j = Some b -> rng_disjoint (data_range a) (data_range b).
Proof.
  intros P i j a b Hne Ha Hb. destruct (N.lt_gt_cases i j) as [H _]. destruct (H Hne) as [Hlt|Hgt].
  - exact (placed_apart P Hlt Ha Hb).
  - apply rng_disjoint_sym. exact (placed_apart P Hgt Hb Ha).
Qed.

Lemma chain_placed secs lo hi :
  chain secs lo hi -> (forall s, In s secs -> s_index s = 0 -> csize s = 0) -> placed secs lo hi.
Proof.
  intros Hc Hnull. split.
  - exact (chain_bounds _ _ _ Hc).
  - intros s Hin Hi. destruct (chain_member _ _ _ s Hc Hin Hi) as (A & B & _). auto.
  - intros i j a b Hij Ha Hb. unfold rng_disjoint, data_range. cbn [fst snd].
    destruct (N.eq_dec (s_index a) 0) as [Ea|Ea]; [right; right; left; exact (Hnull a (nth_optN_In _ _ _ Ha) Ea)|].
    destruct (N.eq_dec (s_index b) 0) as [Eb|Eb]; [right; right; right; exact (Hnull b (nth_optN_In _ _ _ Hb) Eb)|].
    destruct (nth_optN_split2 secs i j a b Hij Ha Hb) as (pre & mid & post & E).
    left. exact (chain_disjoint _ _ _ _ _ _ _ _ Hc E Ea Eb).
Qed.

Definition wrange (w : N * bytes) : N * N := (fst w, lenN (snd w)).

Lemma disjoint_not_in_range (w w' : N * bytes) i :
  rng_disjoint (wrange w) (wrange w') -> in_range w i = true -> in_range w' i = false.
Proof.
  unfold rng_disjoint, wrange, in_range. cbn [fst snd]. intros H Hi.
  apply andb_true_iff in Hi. destruct Hi as [H1 H2]. apply N.leb_le in H1. apply N.ltb_lt in H2.
  destruct (N.leb_spec (fst w') i); destruct (N.ltb_spec i (fst w' + lenN (snd w'))); cbn [andb]; try reflexivity. lia.
Qed.

(* every pair of writes of the plan, in plan order, is disjoint *)
Fixpoint all_disjoint (p : list (N * bytes)) : Prop :=
  match p with
  | [] => True
  | w :: t => Forall (fun w' => rng_disjoint (wrange w) (wrange w')) t /\ all_disjoint t
  end.

Lemma all_disjoint_split p : forall before w after, all_disjoint p -> p = before ++ w :: after ->
  Forall (fun w' => rng_disjoint (wrange w) (wrange w')) after.
Proof.
  induction p as [|x t IH]; intros before w after H E; [destruct before; discriminate|].
  cbn [all_disjoint] in H. destruct H as [H1 H2]. destruct before as [|b bs]; cbn [app] in E; injection E as -> ->.
  - exact H1.
  - eapply IH; eauto.
Qed.

Lemma all_disjoint_app x y :
  all_disjoint x -> all_disjoint y ->
  (forall wa wb, In wa x -> In wb y -> rng_disjoint (wrange wa) (wrange wb)) -> all_disjoint (x ++ y).
Proof.
  induction x as [|w t IH]; intros Hx Hy Hc; cbn [app all_disjoint]; [exact Hy|].
  cbn [all_disjoint] in Hx. destruct Hx as [H1 H2]. split.
  - apply Forall_app. split; [exact H1|]. apply Forall_forall. intros wb Hb. apply Hc; [now left|exact Hb].
  - apply IH; auto. intros wa wb Ha Hb. apply Hc; [now right|exact Hb].
Qed.

Lemma all_disjoint_flat_map {A} (f : A -> list (N * bytes)) : forall l,
  (forall a, In a l -> all_disjoint (f a)) ->
  (forall i j a b wa wb, i < j -> nth_optN l i = Some a -> nth_optN l j = Some b -> In wa (f a) -> In wb (f b) ->
     rng_disjoint (wrange wa) (wrange wb)) ->
  all_disjoint (flat_map f l).
Proof.
  induction l as [|a t IH]; intros Hself Hcross; cbn [flat_map]; [exact I|]. apply all_disjoint_app.
  - apply Hself. now left.
  - apply IH; [intros b Hb; apply Hself; now right|].
    intros i j x y wx wy Hij Hi Hj. apply (Hcross (i + 1) (j + 1) x y wx wy); [lia| |]; now rewrite nth_optN_succ.
  - intros wa wb Ha Hb. apply in_flat_map in Hb. destruct Hb as (b & Hbt & Hwb).
    destruct (In_nth_optN _ _ Hbt) as (j & Hj).
    apply (Hcross 0 (j + 1) a b wa wb); [lia|reflexivity|now rewrite nth_optN_succ|exact Ha|exact Hwb].
Qed.

Theorem disjoint_plan_all_visible (p : list (N * bytes)) :
  all_disjoint p -> plan_small 0 p ->
  forall w, In w p -> sliceN (os_bytes (exec_plan (new_ostream None) p)) (fst w) (lenN (snd w)) = snd w.
Proof.
  intros Hd Hs w Hin. destruct (in_split _ _ Hin) as (before & after & E). rewrite E.
  destruct new_ostream_flat as (Ok0 & G0 & _).
  apply plan_slice_visible; try assumption.
  - rewrite <- E. exact Hs.
  - intros w' i Hw' Hi. pose proof (all_disjoint_split p before w after Hd E) as Hall.
    rewrite Forall_forall in Hall. eapply disjoint_not_in_range; eauto.
Qed.

Lemma save_header_is_planned h :
  fst (save_header h [] (new_ostream None)) = exec_plan (new_ostream None) [(0, ehdr_bytes h)].
Proof. reflexivity. Qed.

(* what save() writes for the ELF header and the sections, as one plan *)
Definition sec_writes (enc : endian) (shoff es : N) (s : section) : list (N * bytes) :=
  (shoff + es * s_index s, shdr_bytes enc s) ::
  (if negb (csize s =? 0) then match s_data s with Some b => [(sh_offset s, firstnN b (sh_size s))] | None => [] end else []).
Definition noseg_plan (h : ehdr) (secs : list section) : list (N * bytes) :=
  (0, ehdr_bytes h) :: flat_map (sec_writes (e_enc h) (e_shoff h) (e_shentsize h)) secs.

Set Implicit Arguments.
Record writes_ok (h : ehdr) (secs : list section) : Prop := {
  wo_indexed : indexed_from 0 secs;
  wo_entry : forall s, In s secs -> shdr_size (s_cls s) <= e_shentsize h;
  wo_null : forall s, In s secs -> s_index s = 0 -> csize s = 0;
  wo_ident : lenN (e_ident h) = 16;
  wo_ehsize : e_ehsize h = ehdr_size (e_cls h)
}.
Unset Implicit Arguments.

(* a section whose data, if it carries any, have been loaded: see the comment at [plannable] *)
Definition ready (s : section) : Prop :=
  sh_offset s < 2 ^ xw (s_cls s) /\
  (csize s <> 0 -> forall b, s_data s = Some b -> s_loaded s = true /\ sh_size s <= lenN b).

Definition file_holds (file : bytes) (h : ehdr) (secs : list section) : Prop :=
  sliceN file 0 (ehdr_size (e_cls h)) = ehdr_bytes h /\
  (forall s, In s secs ->
     sliceN file (e_shoff h + e_shentsize h * s_index s) (shdr_size (s_cls s)) = shdr_bytes (e_enc h) s) /\
  (forall s b, In s secs -> csize s <> 0 -> s_data s = Some b ->
     sliceN file (sh_offset s) (sh_size s) = firstnN b (sh_size s)).

(* [extra]: the records written between the ELF header and lo, i.e. the program header table *)
Section Plan.
  Variables (h : ehdr) (secs : list section) (lo hi : N) (extra : list (N * bytes)).
  Hypothesis Hpl : placed secs lo hi.
  Hypothesis Hok : writes_ok h secs.
  Hypothesis Hlo : e_ehsize h <= lo.
  Hypothesis Hsh : hi <= e_shoff h.
  Hypothesis Hdata : forall s b, In s secs -> s_data s = Some b -> sh_size s <= lenN b.
  Hypothesis Hextra : forall w, In w extra -> e_ehsize h <= fst w /\ fst w + lenN (snd w) <= lo.
  Hypothesis Hextra_d : all_disjoint extra.

  Let shoff := e_shoff h.
  Let es := e_shentsize h.
  Let sw := sec_writes (e_enc h) shoff es.

  Lemma wrange_hdr : wrange (0, ehdr_bytes h) = hdr_range (e_ehsize h).
  Proof. unfold wrange, hdr_range. cbn [fst snd]. rewrite lenN_ehdr_bytes by exact (wo_ident Hok). now rewrite (wo_ehsize Hok). Qed.

  Lemma wrange_entry s : wrange (shoff + es * s_index s, shdr_bytes (e_enc h) s) = shdr_range shoff es s.
  Proof. unfold wrange, shdr_range. cbn [fst snd]. now rewrite lenN_shdr_bytes. Qed.

  Lemma wrange_data s b : In s secs -> csize s <> 0 -> s_data s = Some b ->
    wrange (sh_offset s, firstnN b (sh_size s)) = data_range s.
  Proof.
    intros Hs Hc Hd. unfold wrange, data_range. cbn [fst snd]. rewrite lenN_firstnN.
    destruct (csize_carried s Hc) as [-> _]. pose proof (Hdata s b Hs Hd). f_equal. lia.
  Qed.

  Lemma sec_writes_ranges s w : In s secs -> In w (sw s) ->
    wrange w = shdr_range shoff es s \/ (wrange w = data_range s /\ csize s <> 0).
  Proof.
    intros Hs Hw. destruct Hw as [<-|Hw]; [left; apply wrange_entry|].
    destruct (N.eqb_spec (csize s) 0) as [E|E]; cbn [negb] in Hw; [contradiction|].
    destruct (s_data s) as [b|] eqn:Ed; [|contradiction]. destruct Hw as [<-|[]]. right. split; [|exact E].
    now apply wrange_data.
  Qed.

  Lemma data_in s : In s secs -> csize s <> 0 -> lo <= sh_offset s /\ sh_offset s + csize s <= hi.
  Proof. intros Hs Hc. apply (placed_in Hpl s Hs). intro E0. now apply Hc, (wo_null Hok). Qed.

  Lemma table_after_data s t : In s secs -> csize s <> 0 -> rng_disjoint (data_range s) (shdr_range shoff es t).
  Proof.
    intros Hs Hc. destruct (data_in s Hs Hc) as [_ B]. unfold rng_disjoint, data_range, shdr_range. cbn [fst snd].
    left. unfold shoff. lia.
  Qed.

  Lemma table_entries_apart i j a b : i < j -> nth_optN secs i = Some a -> nth_optN secs j = Some b ->
    rng_disjoint (shdr_range shoff es a) (shdr_range shoff es b).
  Proof.
    intros Hij Ha Hb. unfold rng_disjoint, shdr_range. cbn [fst snd].
    rewrite (indexed_nth _ _ _ _ (wo_indexed Hok) Ha), (indexed_nth _ _ _ _ (wo_indexed Hok) Hb).
    pose proof (wo_entry Hok a (nth_optN_In _ _ _ Ha)) as He. fold es in He. left. clear - Hij He. nia.
  Qed.

  Lemma cross_disjoint i j a b wa wb : i < j -> nth_optN secs i = Some a -> nth_optN secs j = Some b ->
    In wa (sw a) -> In wb (sw b) -> rng_disjoint (wrange wa) (wrange wb).
  Proof.
    intros Hij Ha Hb Hwa Hwb. pose proof (nth_optN_In _ _ _ Ha) as Ia. pose proof (nth_optN_In _ _ _ Hb) as Ib.
    destruct (sec_writes_ranges a wa Ia Hwa) as [Ra|[Ra Ca]]; destruct (sec_writes_ranges b wb Ib Hwb) as [Rb|[Rb Cb]]; rewrite Ra, Rb.
    - exact (table_entries_apart i j a b Hij Ha Hb).
    - apply rng_disjoint_sym. now apply table_after_data.
    - now apply table_after_data.
    - exact (placed_apart Hpl Hij Ha Hb).
  Qed.

  Lemma sec_writes_self s : In s secs -> all_disjoint (sw s).
  Proof.
    intros Hs. unfold sw, sec_writes. destruct (N.eqb_spec (csize s) 0) as [E|E]; cbn [negb]; [cbn; auto|].
    destruct (s_data s) as [b|] eqn:Ed; [|cbn; auto]. cbn [all_disjoint]. split; [|cbn; auto].
    constructor; [|constructor]. rewrite wrange_entry, (wrange_data s b Hs E Ed).
    apply rng_disjoint_sym. now apply table_after_data.
  Qed.

  Lemma sec_writes_from s w : In s secs -> In w (sw s) -> lo <= fst w.
  Proof.
    intros Hs Hw. pose proof (placed_le Hpl). change (fst w) with (fst (wrange w)).
    destruct (sec_writes_ranges s w Hs Hw) as [->|[-> C]]; [unfold shdr_range, shoff; cbn [fst]; lia|apply (data_in s Hs C)].
  Qed.

  Theorem plan_disjoint : all_disjoint (noseg_plan h secs ++ extra).
  Proof.
    assert (Hfrom : forall w, In w (flat_map sw secs) -> lo <= fst w).
    { intros w Hw. apply in_flat_map in Hw. destruct Hw as (s & Hs & Hw). exact (sec_writes_from s w Hs Hw). }
    apply all_disjoint_app; [|exact Hextra_d|].
    - cbn [noseg_plan all_disjoint]. split; [|apply all_disjoint_flat_map; [exact sec_writes_self|exact cross_disjoint]].
      apply Forall_forall. intros w Hw. rewrite wrange_hdr. left. cbn [hdr_range wrange fst snd]. specialize (Hfrom w Hw). lia.
    - intros wa wb Ha Hb. destruct (Hextra wb Hb) as [X1 X2]. destruct Ha as [<-|Ha].
      + rewrite wrange_hdr. left. cbn [hdr_range wrange fst snd]. lia.
      + right; left. cbn [wrange fst snd]. specialize (Hfrom wa Ha). lia.
  Qed.

  Theorem plan_file_contents :
    plan_small 0 (noseg_plan h secs ++ extra) ->
    let file := os_bytes (exec_plan (new_ostream None) (noseg_plan h secs ++ extra)) in
    file_holds file h secs /\ (forall w, In w extra -> sliceN file (fst w) (lenN (snd w)) = snd w).
  Proof.
    intros Hs. cbv zeta. pose proof (disjoint_plan_all_visible _ plan_disjoint Hs) as V.
    assert (Vs : forall s w, In s secs -> In w (sw s) ->
              sliceN (os_bytes (exec_plan (new_ostream None) (noseg_plan h secs ++ extra))) (fst w) (lenN (snd w)) = snd w).
    { intros s w Hin Hw. apply V. apply in_or_app. left. right. apply in_flat_map. eauto. }
    split; [split; [|split]|].
    - specialize (V (0, ehdr_bytes h) ltac:(now left)). cbn [fst snd] in V. now rewrite lenN_ehdr_bytes in V by exact (wo_ident Hok).
    - intros s Hin. specialize (Vs s _ Hin (or_introl eq_refl)). cbn [fst snd] in Vs. now rewrite lenN_shdr_bytes in Vs.
    - intros s b Hin Hc Ed. specialize (Vs s (sh_offset s, firstnN b (sh_size s)) Hin). cbn [fst snd] in Vs.
      rewrite lenN_firstnN in Vs. replace (N.min (sh_size s) (lenN b)) with (sh_size s) in Vs by (pose proof (Hdata s b Hin Ed); lia).
      apply Vs. right. destruct (N.eqb_spec (csize s) 0); [contradiction|]. cbn [negb]. rewrite Ed. now left.
    - intros w Hw. apply V. apply in_or_app. now right.
  Qed.
End Plan.

Section Noseg.
  Variables (h : ehdr) (secs : list section) (pos' : N).
  Hypothesis Hchain : chain secs (e_ehsize h) pos'.
  Hypothesis Hok : writes_ok h secs.
  Hypothesis Hsh : pos' <= e_shoff h.
  Hypothesis Hdata : forall s b, In s secs -> s_data s = Some b -> sh_size s <= lenN b.

  Theorem noseg_plan_disjoint : all_disjoint (noseg_plan h secs).
  Proof.
    rewrite <- (app_nil_r (noseg_plan h secs)).
    apply (plan_disjoint h secs (e_ehsize h) pos' [] (chain_placed _ _ _ Hchain (wo_null Hok)) Hok (N.le_refl _) Hsh Hdata);
      [intros w []|exact I].
  Qed.

  Theorem noseg_file_contents :
    plan_small 0 (noseg_plan h secs) -> file_holds (os_bytes (exec_plan (new_ostream None) (noseg_plan h secs))) h secs.
  Proof.
    rewrite <- (app_nil_r (noseg_plan h secs)). intros Hs.
    exact (proj1 (plan_file_contents h secs (e_ehsize h) pos' [] (chain_placed _ _ _ Hchain (wo_null Hok)) Hok
                    (N.le_refl _) Hsh Hdata ltac:(intros w []) I Hs)).
  Qed.
End Noseg.

Lemma keeps_index s s' : keeps s s' -> s_index s' = s_index s.
Proof. intros [->|[_ ->]]; reflexivity. Qed.

Set Implicit Arguments.
Record noseg_laid (el : elfio) (h0 : ehdr) (el' : elfio) (h' : ehdr) (pos' : N) : Prop := {
  nl_layout : layout el = Ok (el', true);
  nl_hdr : el_hdr el' = Some h';
  nl_segs : el_segs el' = [];
  nl_keeps : Forall2 keeps (el_secs el) (el_secs el');
  nl_chain : chain (el_secs el') (e_ehsize h0) pos';
  nl_fields : hdr_laid h0 h' 0 0 (wrap16 (lenN (el_secs el))) (pos' + (16 - pos' mod 16));
  nl_end : pos' <= e_ehsize h0 + budget (el_secs el);
  nl_again : layout el' = Ok (el', true)
}.
Unset Implicit Arguments.

Lemma layout_noseg_laid el h0 bound :
  el_hdr el = Some h0 -> el_segs el = [] ->
  bound <= 2 ^ 64 -> Forall (fun s => bound <= 2 ^ xw (s_cls s)) (el_secs el) ->
  e_ehsize h0 + budget (el_secs el) + 16 < bound ->
  exists el' h' pos', noseg_laid el h0 el' h' pos'.
Proof.
  intros Hh Hs Hb Hc Hbud.
  destruct (layout_noseg el h0 bound Hh Hs Hb Hc Hbud) as (el' & secs' & h' & pos' & E & <- & Eg & Eh & K & Ch & -> & Le & L2).
  eexists el', _, pos'. split; try eassumption. apply hdr_laid_fields.
Qed.

(* The layout of an object without segments provides the premises of Section Noseg. *)
Theorem layout_noseg_chain el h0 bound :
  el_hdr el = Some h0 -> el_segs el = [] ->
  bound <= 2 ^ 64 -> Forall (fun s => bound <= 2 ^ xw (s_cls s)) (el_secs el) ->
  e_ehsize h0 + budget (el_secs el) + 16 < bound -> bound <= 2 ^ xw (e_cls h0) ->
  indexed_from 0 (el_secs el) ->
  exists el' h',
    layout el = Ok (el', true) /\ el_hdr el' = Some h' /\ indexed_from 0 (el_secs el') /\
    exists pos', chain (el_secs el') (e_ehsize h') pos' /\ pos' <= e_shoff h' /\ e_ehsize h' = e_ehsize h0 /\
                 e_shentsize h' = e_shentsize h0.
Proof.
  intros Hh Hs Hb Hc Hbud Hcls Hidx.
  destruct (layout_noseg_laid el h0 bound Hh Hs Hb Hc Hbud) as (el' & h' & pos' & L). pose proof (nl_fields L) as HL.
  exists el', h'. split; [exact (nl_layout L)|]. split; [exact (nl_hdr L)|].
  split; [exact (indexed_from_Forall2 keeps keeps_index _ _ (nl_keeps L) 0 Hidx)|].
  exists pos'. pose proof (nl_end L). rewrite (hl_ehsize HL), (hl_shentsize HL), (hdr_laid_shoff _ _ _ _ _ _ HL) by lia.
  pose proof (pad16_bounds pos'). repeat split; [exact (nl_chain L)|lia].
Qed.

From ElfioV Require Import ByName_proofs.

Section PlanOf.
  Variable junk : N -> N.

  (* what section_plan needs of a section to emit [sec_writes] and leave section and input stream alone.
     The section predicates around save(): [quiet] (ByName_proofs) makes a data request a no-op, [offset_norm]
     (Save_twice) makes the rewriting of the offset a no-op; saving twice needs just these two.  [plannable] asks that
     the offset fits its field, which gives [offset_norm] (Save_twice.offset_fits_norm), and of a section that
     carries data that it is quiet and its buffer covers the size.  [ready] asks "loaded" instead of quiet
     (ready_plannable); [writable] (Save_endtoend) asks quiet and the buffer of every section, carrying or not
     (writable_quiet, writable_plannable).  Neither of [ready] and [writable] implies the other. *)
  Definition plannable (s : section) : Prop :=
    sh_offset s < 2 ^ xw (s_cls s) /\
    (csize s <> 0 -> forall b, s_data s = Some b -> quiet s /\ sh_size s <= lenN b).

  Lemma ready_plannable s : ready s -> plannable s.
  Proof.
    intros [Ho Hr]. split; [exact Ho|]. intros Hc b Hd. destruct (Hr Hc b Hd) as [Hl Hb]. split; [|exact Hb].
    unfold quiet. now rewrite Hl.
  Qed.

  Lemma entry_pos_plain shoff es idx : shoff < 2 ^ 63 -> entry_pos shoff es idx = shoff + es * idx.
  Proof.
    intros H. unfold entry_pos. rewrite to_signed64_small by exact H. lia.
  Qed.

  Lemma sec_get_data_quiet st t s : quiet s -> sec_get_data junk st t s = Ok (st, s, []).
  Proof. unfold quiet, sec_get_data. now intros ->. Qed.

  Lemma section_plan_plannable enc st t s hpos : plannable s ->
    section_plan junk false enc st t s hpos =
      Ok (st, s, (hpos, shdr_bytes enc s) ::
                 (if negb (csize s =? 0) then match s_data s with Some b => [(sh_offset s, firstnN b (sh_size s))] | None => [] end else [])).
  Proof.
    intros [Ho Hr]. unfold section_plan.
    assert (E1 : (if s_index s =? 0 then s else with_offset s (sh_offset s)) = s).
    { destruct (s_index s =? 0); [reflexivity|now apply with_offset_same]. }
    rewrite E1, <- csize_nonzero_b.
    destruct (N.eqb_spec (csize s) 0) as [Hc|Hc]; cbn [negb andb]; [reflexivity|].
    destruct (s_data s) as [b|] eqn:Ed; [|reflexivity]. unfold is_compressed. cbn [andb].
    destruct (Hr Hc b eq_refl) as [Q Hb].
    rewrite (sec_get_data_quiet st t s Q). cbn [bind]. rewrite Ed.
    rewrite rd_some by lia. cbn [bind]. unfold sliceN. rewrite skipnN_0. reflexivity.
  Qed.

  Theorem sections_plan_plannable enc h t st : forall todo done acc,
    e_shoff h < 2 ^ 63 -> Forall plannable todo ->
    sections_plan junk false enc h t st done todo acc =
      Ok (st, rev_append done [] ++ todo, acc ++ flat_map (sec_writes enc (e_shoff h) (e_shentsize h)) todo).
  Proof.
    induction todo as [|s r IH]; intros done acc H63 Hr; cbn [sections_plan flat_map].
    - now rewrite !app_nil_r.
    - inversion Hr as [|? ? Hs Ht]; subst.
      rewrite (section_plan_plannable enc st t s _ Hs). cbn [bind].
      rewrite IH by assumption. f_equal. f_equal; [f_equal|].
      + rewrite !rev_append_rev. cbn [rev]. rewrite !app_nil_r, <- app_assoc. reflexivity.
      + rewrite <- app_assoc. f_equal. unfold sec_writes. rewrite entry_pos_plain by exact H63. reflexivity.
  Qed.

  Theorem sections_plan_noseg enc h st todo done acc :
    e_shoff h < 2 ^ 63 -> Forall ready todo ->
    sections_plan junk false enc h [] st done todo acc =
      Ok (st, rev_append done [] ++ todo, acc ++ flat_map (sec_writes enc (e_shoff h) (e_shentsize h)) todo).
  Proof. intros H63 Hr. apply sections_plan_plannable; [exact H63|]. eapply Forall_impl; [exact ready_plannable|exact Hr]. Qed.
End PlanOf.
