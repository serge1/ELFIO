(* Modinfo_table.v — C14: the attributes of a module-info section written as
   field=value NUL records are the attributes the accessor reports, in order. *)
From ElfioV Require Import Bytes Mem Accessors.
Local Open Scope N_scope.

Definition attr := (bytes * bytes)%type.
Definition attr_rec (a : attr) : bytes := fst a ++ [61] ++ snd a ++ [0].
Definition attr_ok (a : attr) : Prop := Forall (fun x => x <> 0 /\ x <> 61) (fst a) /\ Forall (fun x => x <> 0) (snd a).

Lemma split_eq_field f v : Forall (fun x => x <> 0 /\ x <> 61) f -> split_eq (f ++ 61 :: v) = Some (f, v).
Proof.
  induction 1 as [|x t [_ Hx] Ht IH]; cbn [app split_eq]; [reflexivity|].
  destruct (N.eqb_spec x 61); [contradiction|]. now rewrite IH.
Qed.

Lemma rd_byte_at (b r : bytes) x off : skipnN b off = x :: r -> rd (Some b) off 1 = Ok [x].
Proof. exact (rd_at b [x] r off). Qed.

Lemma cstring_at_block (b s rest : bytes) i :
  skipnN b i = s ++ 0 :: rest -> Forall (fun x => x <> 0) s -> cstring_at (Some b) i = Ok s.
Proof.
  intros Hb Hs. pose proof (f_equal lenN Hb) as L. rewrite lenN_skipnN, lenN_app, lenN_cons in L.
  unfold cstring_at. rewrite Hb, (find0_app_nul s rest (lenN b) 0 Hs) by lia.
  now rewrite N.add_0_l, firstnN_app_exact.
Qed.

(* the run of zeros [zs] at offset i ends at the end of the section or before a non-zero byte *)
Lemma skip_nul_zeros (b zs rest : bytes) size : forall i fuel,
  skipnN b i = zs ++ rest -> Forall (fun x => x = 0) zs -> i + lenN zs <= size ->
  (i + lenN zs = size \/ exists x r, rest = x :: r /\ x <> 0) -> lenN zs < lenN fuel ->
  skip_nul fuel (Some b) size i = Ok (i + lenN zs).
Proof.
  induction zs as [|z t IH]; intros i fuel Hb Hz Hs Hend Hf;
    (destruct fuel as [|u f]; [cbn in Hf; lia|]); cbn [skip_nul app] in *.
  - rewrite lenN_nil, N.add_0_r in *. destruct (N.ltb_spec i size) as [Hlt|]; [|reflexivity].
    destruct Hend as [He|(x & r & -> & Hx)]; [lia|]. rewrite (rd_byte_at b r x i Hb). cbn [bind nthN N.eqb].
    destruct (N.eqb_spec x 0); [contradiction|reflexivity].
  - inversion Hz as [|? ? Hz1 Hz2]; subst. rewrite !lenN_cons, ?N.add_assoc in *. destruct (N.ltb_spec i size); [|lia].
    rewrite (rd_byte_at b _ 0 i Hb). cbn [bind nthN N.eqb].
    apply IH; [exact (skipnN_after b [0] _ i Hb)|exact Hz2|exact Hs|exact Hend|lia].
Qed.

Theorem mod_parse_spec : forall (attrs : list attr) (b zs post : bytes) fuel size i acc,
  skipnN b i = zs ++ concat (map attr_rec attrs) ++ post ->
  Forall attr_ok attrs -> Forall (fun x => x = 0) zs ->
  size = i + lenN zs + lenN (concat (map attr_rec attrs)) ->
  2 * lenN attrs + 2 <= lenN fuel ->
  mod_parse fuel (Some b) size i acc = Ok (acc ++ attrs).
Proof.
  induction attrs as [|[f v] t IH]; intros b zs post fuel size i acc Hb Ha Hz -> Hf;
    pose proof (skipnN_block_le b zs _ i Hb) as Lz; cbn [map concat] in *.
  - rewrite lenN_nil, N.add_0_r, app_nil_r.
    destruct fuel as [|u1 [|u2 f2]]; try (cbn in Hf; lia). cbn [mod_parse].
    destruct (N.ltb_spec i (i + lenN zs)); [|reflexivity].
    rewrite (skip_nul_zeros b zs post _ i _ Hb Hz); [|lia|now left|rewrite lenN_cons; lia].
    cbn [bind]. now rewrite !N.ltb_irrefl.
  - inversion Ha as [|? ? [Hfo Hvo] Hat]; subst. cbn [fst snd] in Hfo, Hvo.
    set (info := f ++ 61 :: v). set (rest := concat (map attr_rec t)) in *.
    replace (attr_rec (f, v) ++ rest) with (info ++ 0 :: rest) in * by (unfold attr_rec, info; cbn [fst snd]; now rewrite <- !app_assoc).
    rewrite <- app_assoc in Hb. cbn [app] in Hb.
    assert (Hinfo : Forall (fun x => x <> 0) info).
    { apply Forall_app. split; [eapply Forall_impl; [|exact Hfo]; cbn; tauto|]. constructor; [discriminate|exact Hvo]. }
    rewrite lenN_app, lenN_cons in *. rewrite lenN_cons in Hf.
    destruct fuel as [|u1 f1]; [cbn in Hf; lia|]. rewrite lenN_cons in Hf. cbn [mod_parse].
    set (size := i + lenN zs + _).
    destruct (N.ltb_spec i size); [|lia].
    rewrite (skip_nul_zeros b zs _ size i _ Hb Hz); [|lia| |rewrite lenN_cons; lia].
    2:{ right. unfold info in *. destruct f; inversion Hinfo; cbn [app]; eauto. }
    cbn [bind]. destruct (N.ltb_spec (i + lenN zs) size); [|lia].
    (* the C string at the record start; its terminator is the next run of zeros *)
    apply skipnN_after in Hb. rewrite (cstring_at_block b info _ _ Hb Hinfo). cbn [bind].
    replace (mod_split info) with (f, v) by (unfold mod_split, info; now rewrite split_eq_field).
    rewrite (IH b [0] post f1 size _ _ (skipnN_after _ _ _ _ Hb) Hat); [|repeat constructor|cbn [lenN]; lia|lia].
    now rewrite <- app_assoc.
Qed.

Theorem mod_find_first (l : list attr) field v :
  mod_find l field = Some v <->
  exists pre post, l = pre ++ (field, v) :: post /\ Forall (fun a => fst a <> field) pre.
Proof.
  pose proof (proj2 (bytes_eqb_spec field field) eq_refl) as Refl. split.
  - induction l as [|[f x] t IH]; cbn [mod_find]; [discriminate|].
    destruct (bytes_eqb field f) eqn:E.
    + intros [= ->]. apply bytes_eqb_spec in E. subst f. exists [], t. split; [reflexivity|constructor].
    + intros H. destruct (IH H) as (pre & post & -> & Hp). exists ((f, x) :: pre), post. split; [reflexivity|].
      constructor; [|exact Hp]. cbn. intros ->. congruence.
  - intros (pre & post & -> & Hp). induction Hp as [|[f x] t Hf Ht IH]; cbn [app mod_find].
    + now rewrite Refl.
    + cbn in Hf. destruct (bytes_eqb field f) eqn:E; [apply bytes_eqb_spec in E; congruence|exact IH].
Qed.
