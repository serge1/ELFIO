(* Data_proofs.v — C15/C17: what a data request delivers is a function of the
   file bytes at the (translated) range alone: independent of when it is asked,
   of the stream position, of a release in between, of the rest of the file. *)
From ElfioV Require Import Bytes Mem Stream Stream_proofs SectionData Strings Elfio Table Loader Load_proofs.
From Coq Require Import ZifyBool ZifyN ZifyNat.
Local Open Scope N_scope.


Lemma seek_read st off n :
  is_fail st = false -> is_len st = lenN (is_content st) -> off < 2 ^ 63 -> off + n <= lenN (is_content st) ->
  snd (read (seekg st (to_signed64 off)) n) = sliceN (is_content st) off n /\
  is_fail (fst (read (seekg st (to_signed64 off)) n)) = false.
Proof.
  intros Hf Hl Ho Hin. rewrite (to_signed64_small off Ho). destruct (seek_read_at st off n Hf Hl) as (R1 & R2 & _). auto.
Qed.

Lemma sec_file_off_same t s s1 : hdr_same s s1 -> sec_file_off t s1 = sec_file_off t s.
Proof. intros HS. unfold sec_file_off. now rewrite (hdr_same_offset _ _ HS). Qed.

Section WithEnv.
  Variable junk : N -> N.

  (* a section whose bytes are really in the file *)
  Definition sec_loadable (t : xlat) (content : bytes) (s : section) : Prop :=
    s_data s = None /\ sh_type s <> SHT_NULL /\ sh_type s <> SHT_NOBITS /\ 0 < sh_size s /\
    sec_file_off t s + sh_size s <= lenN content /\ lenN content < 2 ^ 63 /\ lenN content <= s_stream_size s.

  Lemma sec_loadable_same t content s s1 :
    sec_loadable t content s -> hdr_same s s1 -> s_data s1 = None -> sec_loadable t content s1.
  Proof.
    intros (_ & H) HS D. unfold sec_loadable.
    now rewrite (sec_file_off_same t _ _ HS), (hdr_same_type _ _ HS), (hdr_same_size _ _ HS), (hdr_same_stream_size _ _ HS).
  Qed.

  Theorem sec_load_data_complete st t s :
    is_fail st = false -> st_inv st -> sec_loadable t (is_content st) s ->
    exists st1 s1,
      sec_load_data junk (Some st) t s = Ok (Some st1, s1, true, [sh_size s + 1]) /\
      s_data s1 = Some (sliceN (is_content st) (sec_file_off t s) (sh_size s) ++ [0]) /\
      is_fail st1 = false /\ is_content st1 = is_content st /\ st_inv st1 /\ hdr_same s s1 /\ s_loaded s1 = true /\
      s_lazy s1 = s_lazy s /\ s_can_load s1 = s_can_load s.
  Proof.
    intros Hf Hi (Hd & Hn1 & Hn2 & Hsz & Hin & H63 & Hss). unfold sec_load_data. fold (sec_file_off t s).
    set (off := sec_file_off t s) in *. set (size := sh_size s) in *. set (ss := s_stream_size s) in *.
    destruct (N.ltb_spec ss off); [lia|]. destruct (N.ltb_spec ss size); [lia|]. cbn [orb].
    destruct (N.ltb_spec (ss - off) size); [lia|]. rewrite Hd.
    apply N.eqb_neq in Hn1, Hn2. rewrite Hn1, Hn2. cbn [orb].
    destruct (N.ltb_spec (SIZE_MAX - 1) size); [unfold SIZE_MAX in *; lia|].
    destruct (N.eqb_spec size 0); [lia|].
    destruct (seek_read st off size Hf Hi ltac:(lia) Hin) as [R1 R2].
    destruct (read (seekg st (to_signed64 off)) size) as [st2 got] eqn:ER. cbn [fst snd] in R1, R2. subst got.
    rewrite (lenN_sliceN_in _ off size Hin), N.eqb_refl.
    pose proof (seek_read_same _ _ _ _ _ ER) as SS.
    eexists st2, _. split; [reflexivity|]. split; [reflexivity|]. split; [exact R2|]. split; [apply SS|].
    split; [exact (st_same_inv _ _ SS Hi)|].
    split; [exact (hdr_same_trans _ _ _ (hdr_same_data _ _ _) (hdr_same_flags _ _ _ _))|]. repeat split.
  Qed.

  (* C15: releasing the data of a lazily loaded section and asking again gives the same bytes *)
  Theorem free_then_get st t s s1 st1 :
    is_fail st = false -> st_inv st -> sec_loadable t (is_content st) s -> s_lazy s = true -> s_can_load s = true ->
    sec_load_data junk (Some st) t s = Ok (Some st1, s1, true, [sh_size s + 1]) ->
    exists st2 s2 al,
      sec_get_data junk (Some st1) t (free_data s1) = Ok (Some st2, s2, al) /\ s_data s2 = s_data s1.
  Proof.
    intros Hf Hi Hl Hz Hcl E.
    destruct (sec_load_data_complete st t s Hf Hi Hl) as (st1' & s1' & E' & D1 & F1 & C1 & I1 & HS & Ld & Z1 & Z2).
    rewrite E in E'. injection E' as <- <-.
    assert (Hz1 : s_lazy s1 = true) by congruence. assert (Hcl1 : s_can_load s1 = true) by congruence.
    assert (Ef : free_data s1 = with_load_flags (with_data s1 None (s_data_size s1)) true false true).
    { unfold free_data. rewrite Hz1, Hcl1. reflexivity. }
    rewrite Ef. set (sf := with_load_flags (with_data s1 None (s_data_size s1)) true false true).
    assert (Hlf : sec_loadable t (is_content st1) sf).
    { rewrite C1. exact (sec_loadable_same _ _ _ sf Hl HS eq_refl). }
    destruct (sec_load_data_complete st1 t sf F1 I1 Hlf) as (st2 & s2 & E2 & D2 & _).
    unfold sec_get_data. change (negb (s_loaded sf) && s_can_load sf) with true. cbv iota.
    rewrite E2. cbn [bind]. eexists _, _, _. split; [reflexivity|].
    rewrite D2, D1, C1, (sec_file_off_same t s sf HS). change (sh_size sf) with (sh_size s1). now rewrite (hdr_same_size _ _ HS).
  Qed.

  (* C17: a prefix of the file.  When a data request on the prefix stores data at all, the same request on the whole
     file stores the same data *)
  Theorem prefix_same_data kind (full : bytes) (k : N) t s :
    k <= lenN full -> lenN full < 2 ^ 63 ->
    let pre := firstnN full k in
    forall sp sf, hdr_same s sp -> hdr_same s sf -> s_data sp = None -> s_data sf = None ->
      s_stream_size sp = lenN pre -> s_stream_size sf = lenN full ->
      sh_type s <> SHT_NULL -> sh_type s <> SHT_NOBITS -> 0 < sh_size s ->
      forall st1 s1 ok al,
        sec_load_data junk (Some (open_istream kind pre)) t sp = Ok (st1, s1, ok, al) ->
        forall d, s_data s1 = Some d ->
        exists st2 s2, sec_load_data junk (Some (open_istream kind full)) t sf = Ok (Some st2, s2, true, [sh_size sf + 1]) /\
                       s_data s2 = Some d.
  Proof.
    intros Hk H63 pre sp sf HSp HSf Dp Df SSp SSf Hn1 Hn2 Hsz st1 s1 ok al E d Hd.
    assert (Lp : lenN pre = k) by (unfold pre; rewrite lenN_firstnN; lia).
    pose proof (hdr_same_size _ _ HSp) as ZP.
    destruct (sec_load_data_total junk (open_istream kind pre) t sp) as (st1' & s1' & ok' & al' & E' & _ & Hfrom).
    { unfold fits. now rewrite Dp. }
    rewrite E in E'. injection E' as -> -> -> ->.
    destruct (Hfrom Dp d Hd ltac:(lia)) as [-> Hrange]. cbn [is_content open_istream].
    rewrite (sec_file_off_same t _ _ HSp), ZP, SSp, Lp in *.
    assert (Lf : sec_loadable t full sf).
    { unfold sec_loadable. rewrite (sec_file_off_same t _ _ HSf), (hdr_same_type _ _ HSf), (hdr_same_size _ _ HSf), SSf.
      repeat split; auto; lia. }
    destruct (sec_load_data_complete (open_istream kind full) t sf eq_refl eq_refl Lf) as (st2 & s2 & E2 & D2 & _).
    exists st2, s2. split; [exact E2|]. rewrite D2. cbn [is_content open_istream].
    rewrite (sec_file_off_same t _ _ HSf), (hdr_same_size _ _ HSf). do 2 f_equal. symmetry. now apply sliceN_prefix.
  Qed.
End WithEnv.
