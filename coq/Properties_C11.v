(* Properties_C11.v — C11: relocation entries round-trip in both formats, classes and byte orders. *)
From ElfioV Require Import Bytes Mem Stream SectionData SectionData_proofs Strings Elfio Table Accessors Reloc_proofs Arrange_proofs Reloc_swap.
Local Open Scope N_scope.

(* ABI packing of symbol and type: 24+8 bits (ELF32), 32+32 bits (ELF64) *)
Theorem C11_abi_packing :
  forall c sym ty, sym_fits c sym -> type_fits c ty ->
    r_info c sym ty = match c with C32 => sym * 2 ^ 8 + ty | C64 => sym * 2 ^ 32 + ty end
    /\ r_sym c (r_info c sym ty) = sym /\ r_type c (r_info c sym ty) = ty.
Proof. intros c sym ty Hs Ht. split; [now apply r_info_abi|]. split; [now apply r_sym_info|now apply r_type_info]. Qed.
Print Assumptions C11_abi_packing.

(* Adding entries to an empty REL/RELA section (either class, either byte
   order) produces exactly the concatenation of the ABI encodings ... *)
Theorem C11_adds_build_abi_table :
  forall (junk : N -> N) (xlat_empty : bool) c e is_rela s (es : list rel_entry),
    Inv s -> s_cls s = c -> sh_size s = 0 ->
    lenN es * rel_esz c is_rela < size_bound c ->
    exists s', append_all junk xlat_empty s (map (rel_enc c e is_rela) es) = Ok s' /\ Inv s' /\
      contents s' = concat (map (rel_enc c e is_rela) es) /\
      sh_size s' = lenN es * rel_esz c is_rela /\ sh_type s' = sh_type s /\ s_cls s' = c.
Proof.
  intros junk xe c e is_rela s es HI <- H0 HB.
  exact (append_all_table _ _ (rel_enc_len _ e is_rela) junk xe s es HI H0 HB).
Qed.
Print Assumptions C11_adds_build_abi_table.

(* ... and every entry of such a table is returned unchanged by index
   (offset truncated to the class width, addend sign-extended; REL has addend 0) *)
Theorem C11_roundtrip :
  forall c e is_rela s (es : list rel_entry) j r,
    Inv s -> s_cls s = c ->
    contents s = concat (map (rel_enc c e is_rela) es) ->
    sh_type s = (if is_rela then SHT_RELA else SHT_REL) ->
    sh_entsize s = rel_esz c is_rela ->
    sh_size s < size_bound c ->
    nth_optN es j = Some r -> rel_fits c r ->
    rel_get_core c e s (s_data s) j = Ok (Some (rel_view c is_rela r)).
Proof.
  intros c e is_rela s es j r HI HK HC HT HE.
  exact (rel_roundtrip c e is_rela _ s es j r (rel_sec_intro c e is_rela es s HI HK HC HT HE)).
Qed.
Print Assumptions C11_roundtrip.

(* rewriting an entry changes only that entry: the table afterwards is the
   table with entry j replaced (so every other index still reads as before, by
   C11_roundtrip on the new table); the section's size does not change *)
Theorem C11_set_entry_changes_only_that_entry :
  forall c e is_rela s (es : list rel_entry) j r r',
    Inv s -> s_cls s = c ->
    contents s = concat (map (rel_enc c e is_rela) es) ->
    sh_type s = (if is_rela then SHT_RELA else SHT_REL) ->
    sh_entsize s = rel_esz c is_rela -> sh_size s < size_bound c ->
    nth_optN es j = Some r ->
    exists b',
      rel_set_core c e s (s_data s) j (re_offset r') (re_symbol r') (re_type r') (re_addend r') = Ok (Some b') /\
      let s' := with_data s (Some b') (s_data_size s) in
      Inv s' /\ contents s' = concat (map (rel_enc c e is_rela) (updN es j r')) /\ sh_size s' = sh_size s.
Proof.
  intros c e is_rela s es j r r' HI HK HC HT HE HB Hn.
  destruct (rel_set_changes_only_that_entry c e is_rela _ s es j r r' (rel_sec_intro c e is_rela es s HI HK HC HT HE) HB Hn)
    as (b' & E & Hs').
  exists b'. exact (conj E (conj (rel_sec_Inv Hs') (conj (rel_sec_contents Hs') (rs_size Hs')))).
Qed.
Print Assumptions C11_set_entry_changes_only_that_entry.

(* swapping two symbol indices twice restores every entry's symbol index
   (that swap_symbols applies this exchange to each entry is C11_swap_symbols_exchanges_every_entry below) *)
Theorem C11_swap_twice_restores :
  forall a b x, Arrange_proofs.swap1 a b (Arrange_proofs.swap1 a b x) = x.
Proof. exact swap1_involutive. Qed.
Print Assumptions C11_swap_twice_restores.

(* swap_symbols( a, b ) on a section holding a table of entries (either format, class, byte order; the
   data resident): the call succeeds, the section afterwards holds the table in which every entry's
   symbol index x is replaced by (a if x = b, b if x = a, x otherwise) and every other field of every
   entry is as before; type, entry size, size are unchanged and so is every other part of the object
   (the result is the object with that one section replaced) *)
Theorem C11_swap_symbols_exchanges_every_entry :
  forall (junk : N -> N) el relsec s c e is_rela (es : list rel_entry) a b,
    get_sec el relsec = Some s ->
    acls el = c -> el_enc el = e ->
    Inv s -> s_cls s = c -> contents s = concat (map (rel_enc c e is_rela) es) ->
    sh_type s = (if is_rela then SHT_RELA else SHT_REL) -> sh_entsize s = rel_esz c is_rela ->
    sh_size s < size_bound c -> lenN es < 2 ^ 32 ->
    Forall (rel_fits c) es -> sym_fits c a -> sym_fits c b ->
    exists s',
      swap_symbols junk el relsec a b = Ok (upd_sec el relsec s') /\
      Inv s' /\ contents s' = concat (map (rel_enc c e is_rela) (map (swap_entry a b) es)) /\
      sh_type s' = sh_type s /\ sh_entsize s' = sh_entsize s /\ sh_size s' = sh_size s /\ s_cls s' = s_cls s.
Proof.
  intros junk el relsec s c e is_rela es a b Hg Hc He HI HK HC HT HE HB Hlen Hf Ha Hb.
  destruct (swap_symbols_ok junk el relsec s c e is_rela _ es a b Hg Hc He (rel_sec_intro c e is_rela es s HI HK HC HT HE)
              HB Hlen Hf Ha Hb) as (s' & E & Hs').
  exists s'. rewrite HT, HE, HK.
  exact (conj E (conj (rel_sec_Inv Hs') (conj (rel_sec_contents Hs') (conj (rs_type Hs') (conj (rs_entsize Hs') (conj (rs_size Hs') (rs_cls Hs'))))))).
Qed.
Print Assumptions C11_swap_symbols_exchanges_every_entry.

(* ... and doing it twice gives back the original table *)
Theorem C11_swap_symbols_twice_restores_table :
  forall a b (es : list rel_entry), map (swap_entry a b) (map (swap_entry a b) es) = es.
Proof. exact swap_entries_twice. Qed.
Print Assumptions C11_swap_symbols_twice_restores_table.

Example C11_swap_example :
  let mk := mkRelEntry in
  let es := [mk 16 5 1 0; mk 32 9 2 7; mk 48 3 1 0] in
  let s := with_entsize (with_type (set_data true (new_section C64) (concat (map (rel_enc C64 LSB true) es))) SHT_RELA) 24 in
  let el := with_secs (empty_elfio false) [s] in
  acls el = C64 /\ el_enc el = LSB /\ Forall (rel_fits C64) es /\
  match swap_symbols (fun _ => 0) el 0 5 9 with
  | Ok el' => option_map contents (get_sec el' 0) =
              Some (concat (map (rel_enc C64 LSB true) [mk 16 9 1 0; mk 32 5 2 7; mk 48 3 1 0]))
  | Fault _ => False
  end.
Proof.
  cbv zeta. split; [reflexivity|]. split; [reflexivity|]. split; [|vm_compute; reflexivity].
  repeat constructor; cbn; lia.
Qed.

Theorem C11_out_of_range_refused :
  forall c e is_rela s (es : list rel_entry) j p,
    Inv s -> contents s = concat (map (rel_enc c e is_rela) es) ->
    sh_entsize s = rel_esz c is_rela -> lenN es <= j ->
    rel_get_core c e s p j = Ok None.
Proof. exact rel_out_of_range. Qed.
Print Assumptions C11_out_of_range_refused.

Example C11_example :
  let r := mkRelEntry 4096 5 7 (2 ^ 32 - 4) in
  rel_fits C32 r /\
  (let s := with_entsize (with_type (set_data true (new_section C32) (rel_enc C32 MSB true r)) SHT_RELA) 12 in
   rel_get_core C32 MSB s (s_data s) 0) = Ok (Some (mkRelview 4096 5 7 (2 ^ 64 - 4))).
Proof. split; [split; cbn; lia|vm_compute; reflexivity]. Qed.
