(* Bytes.v — bytes, fixed-width words, byte-order codecs, N-indexed list ops.
   Shared vocabulary of every model file.  Stdlib only. *)
From Coq Require Export List NArith ZArith Lia Bool.
From Coq Require Import ZifyBool ZifyN ZifyNat.
Export ListNotations.
Local Open Scope N_scope.

Definition byte := N.
Definition bytes := list N.

Inductive cls := C32 | C64.
Inductive endian := LSB | MSB.

Definition cls_eqb (a b : cls) : bool :=
  match a, b with C32, C32 | C64, C64 => true | _, _ => false end.
Definition endian_eqb (a b : endian) : bool :=
  match a, b with LSB, LSB | MSB, MSB => true | _, _ => false end.

Definition wrap (w : N) (v : N) : N := v mod 2 ^ w.
Definition wrap64 := wrap 64.
Definition wrap32 := wrap 32.
Definition wrap16 := wrap 16.
Definition wrap8 := wrap 8.

(* width in bits of an address-sized field *)
Definition xw (c : cls) : N := match c with C32 => 32 | C64 => 64 end.

(* length as a binary number, counted structurally (no unary nat: matters for
   the extracted model on megabyte inputs) *)
Fixpoint lenN {A} (l : list A) : N :=
  match l with [] => 0 | _ :: t => N.succ (lenN t) end.
Lemma lenN_length {A} (l : list A) : lenN l = N.of_nat (length l).
Proof. induction l as [|x t IH]; cbn [lenN length]; [reflexivity|]. rewrite IH; lia. Qed.

(* ---- N-indexed list operations (structural on the list; fast when extracted) ---- *)
Fixpoint firstnN {A} (l : list A) (n : N) : list A :=
  match l with
  | [] => []
  | x :: t => if n =? 0 then [] else x :: firstnN t (n - 1)
  end.

Fixpoint skipnN {A} (l : list A) (n : N) : list A :=
  match l with
  | [] => []
  | x :: t => if n =? 0 then l else skipnN t (n - 1)
  end.

Definition sliceN {A} (l : list A) (off n : N) : list A := firstnN (skipnN l off) n.

Definition lengthN {A} (l : list A) : N := lenN l.

Fixpoint nthN {A} (l : list A) (n : N) (d : A) : A :=
  match l with
  | [] => d
  | x :: t => if n =? 0 then x else nthN t (n - 1) d
  end.

Fixpoint nth_optN {A} (l : list A) (n : N) : option A :=
  match l with
  | [] => None
  | x :: t => if n =? 0 then Some x else nth_optN t (n - 1)
  end.

Fixpoint updN {A} (l : list A) (n : N) (v : A) : list A :=
  match l with
  | [] => []
  | x :: t => if n =? 0 then v :: t else x :: updN t (n - 1) v
  end.

Fixpoint repeatN_pos {A} (x : A) (p : positive) : list A :=
  match p with
  | xH => [x]
  | xO q => let r := repeatN_pos x q in r ++ r
  | xI q => let r := repeatN_pos x q in x :: r ++ r
  end.
Definition repeatN {A} (x : A) (n : N) : list A :=
  match n with N0 => [] | Npos p => repeatN_pos x p end.

Lemma firstnN_firstn {A} (l : list A) n : firstnN l n = firstn (N.to_nat n) l.
Proof.
  revert n; induction l as [|x t IH]; intro n; cbn [firstnN].
  - now rewrite firstn_nil.
  - destruct (N.eqb_spec n 0) as [->|Hn]; [reflexivity|].
    replace (N.to_nat n) with (S (N.to_nat (n - 1))) by lia.
    cbn [firstn]. now rewrite IH.
Qed.

Lemma skipnN_skipn {A} (l : list A) n : skipnN l n = skipn (N.to_nat n) l.
Proof.
  revert n; induction l as [|x t IH]; intro n; cbn [skipnN].
  - now rewrite skipn_nil.
  - destruct (N.eqb_spec n 0) as [->|Hn]; [reflexivity|].
    replace (N.to_nat n) with (S (N.to_nat (n - 1))) by lia.
    cbn [skipn]. now rewrite IH.
Qed.

Lemma lengthN_lenN {A} (l : list A) : lengthN l = lenN l.
Proof. reflexivity. Qed.

Lemma nth_optN_nth_error {A} (l : list A) n : nth_optN l n = nth_error l (N.to_nat n).
Proof.
  revert n; induction l as [|x t IH]; intro n; cbn [nth_optN].
  - now destruct (N.to_nat n).
  - destruct (N.eqb_spec n 0) as [->|Hn]; [reflexivity|].
    replace (N.to_nat n) with (S (N.to_nat (n - 1))) by lia.
    cbn [nth_error]. now rewrite IH.
Qed.

Lemma nthN_nth {A} (l : list A) n d : nthN l n d = nth (N.to_nat n) l d.
Proof.
  revert n; induction l as [|x t IH]; intro n; cbn [nthN].
  - now destruct (N.to_nat n).
  - destruct (N.eqb_spec n 0) as [->|Hn]; [reflexivity|].
    replace (N.to_nat n) with (S (N.to_nat (n - 1))) by lia.
    cbn [nth]. now rewrite IH.
Qed.

Lemma repeatN_pos_repeat {A} (x : A) p : repeatN_pos x p = repeat x (Pos.to_nat p).
Proof.
  induction p as [q IH|q IH|]; cbn [repeatN_pos].
  - rewrite IH, <- repeat_app.
    replace (Pos.to_nat q~1) with (S (Pos.to_nat q + Pos.to_nat q))%nat by lia.
    reflexivity.
  - rewrite IH, <- repeat_app. f_equal; lia.
  - reflexivity.
Qed.

Lemma repeatN_repeat {A} (x : A) n : repeatN x n = repeat x (N.to_nat n).
Proof. destruct n as [|p]; [reflexivity|]. cbn [repeatN]. rewrite repeatN_pos_repeat. f_equal. Qed.

Lemma lenN_app {A} (a b : list A) : lenN (a ++ b) = lenN a + lenN b.
Proof. rewrite ?lenN_length; rewrite app_length; lia. Qed.
Lemma lenN_nil {A} : lenN (@nil A) = 0. Proof. reflexivity. Qed.
Lemma lenN_cons {A} (x : A) l : lenN (x :: l) = 1 + lenN l.
Proof. rewrite ?lenN_length; cbn [length]; lia. Qed.
Lemma lenN_repeatN {A} (x : A) n : lenN (repeatN x n) = n.
Proof. rewrite ?lenN_length; rewrite repeatN_repeat, repeat_length; lia. Qed.
Lemma lenN_firstnN {A} (l : list A) n : lenN (firstnN l n) = N.min n (lenN l).
Proof. rewrite ?lenN_length; rewrite firstnN_firstn, firstn_length; lia. Qed.
Lemma lenN_skipnN {A} (l : list A) n : lenN (skipnN l n) = lenN l - n.
Proof. rewrite ?lenN_length; rewrite skipnN_skipn, skipn_length; lia. Qed.
Lemma lenN_map {A B} (f : A -> B) l : lenN (map f l) = lenN l.
Proof. rewrite ?lenN_length; now rewrite map_length. Qed.
Lemma lenN_rev {A} (l : list A) : lenN (rev l) = lenN l.
Proof. rewrite ?lenN_length; now rewrite rev_length. Qed.
Lemma lenN_0 {A} (l : list A) : lenN l = 0 -> l = [].
Proof. destruct l; [reflexivity|]. rewrite ?lenN_length; cbn [length]; lia. Qed.

Lemma firstnN_app_exact {A} (a b : list A) n : lenN a = n -> firstnN (a ++ b) n = a.
Proof.
  intros H; rewrite firstnN_firstn. rewrite ?lenN_length in H.
  replace (N.to_nat n) with (length a + 0)%nat by lia.
  rewrite firstn_app_2; cbn [firstn]; apply app_nil_r.
Qed.
Lemma skipnN_app_exact {A} (a b : list A) n : lenN a = n -> skipnN (a ++ b) n = b.
Proof.
  intros H; rewrite skipnN_skipn. rewrite ?lenN_length in H.
  replace (N.to_nat n) with (length a) by lia.
  rewrite skipn_app, skipn_all, Nat.sub_diag; reflexivity.
Qed.
Lemma firstnN_all {A} (l : list A) n : lenN l <= n -> firstnN l n = l.
Proof. intros H; rewrite firstnN_firstn; apply firstn_all2; rewrite ?lenN_length in H; lia. Qed.
Lemma skipnN_all {A} (l : list A) n : lenN l <= n -> skipnN l n = [].
Proof. intros H; rewrite skipnN_skipn; apply skipn_all2; rewrite ?lenN_length in H; lia. Qed.
Lemma firstnN_0 {A} (l : list A) : firstnN l 0 = [].
Proof. destruct l; reflexivity. Qed.
Lemma skipnN_0 {A} (l : list A) : skipnN l 0 = l.
Proof. destruct l; reflexivity. Qed.
Lemma firstnN_skipnN {A} (l : list A) n : firstnN l n ++ skipnN l n = l.
Proof. rewrite firstnN_firstn, skipnN_skipn; apply firstn_skipn. Qed.
Lemma firstnN_app_le {A} (a b : list A) n : n <= lenN a -> firstnN (a ++ b) n = firstnN a n.
Proof.
  intros H; rewrite !firstnN_firstn, firstn_app. rewrite ?lenN_length in H.
  replace (N.to_nat n - length a)%nat with 0%nat by lia. cbn [firstn]; apply app_nil_r.
Qed.
Lemma skipnN_app_le {A} (a b : list A) n : n <= lenN a -> skipnN (a ++ b) n = skipnN a n ++ b.
Proof.
  intros H; rewrite !skipnN_skipn, skipn_app. rewrite ?lenN_length in H.
  replace (N.to_nat n - length a)%nat with 0%nat by lia. reflexivity.
Qed.
Lemma skipnN_app_ge {A} (a b : list A) n : lenN a <= n -> skipnN (a ++ b) n = skipnN b (n - lenN a).
Proof.
  intros H; rewrite !skipnN_skipn, skipn_app. rewrite ?lenN_length in *.
  rewrite skipn_all2 by lia. cbn [app]. f_equal. lia.
Qed.
Lemma firstnN_firstnN {A} (l : list A) n m : firstnN (firstnN l n) m = firstnN l (N.min m n).
Proof. rewrite !firstnN_firstn, firstn_firstn. f_equal; lia. Qed.

Lemma split_at {A} (l : list A) n : n <= lenN l ->
  exists a b, l = a ++ b /\ lenN a = n.
Proof.
  intros H; exists (firstnN l n), (skipnN l n); split.
  - symmetry; apply firstnN_skipnN.
  - rewrite lenN_firstnN; lia.
Qed.

(* ---- overlay: the result of a bounds-checked write ---- *)
Definition overlay (d : bytes) (off : N) (bs : bytes) : bytes :=
  firstnN d off ++ bs ++ skipnN d (off + lenN bs).

Lemma overlay_mid (x y z bs : bytes) a :
  lenN x = a -> lenN y = lenN bs -> overlay (x ++ y ++ z) a bs = x ++ bs ++ z.
Proof.
  intros Hx Hy; unfold overlay.
  rewrite firstnN_app_exact by assumption. f_equal. f_equal.
  rewrite app_assoc. apply skipnN_app_exact. rewrite lenN_app; lia.
Qed.
Lemma lenN_overlay d off bs : off + lenN bs <= lenN d -> lenN (overlay d off bs) = lenN d.
Proof. intros H; unfold overlay; rewrite !lenN_app, lenN_firstnN, lenN_skipnN; lia. Qed.

(* ---- little/big endian codecs ---- *)
Fixpoint enc_le (n : nat) (v : N) : bytes :=
  match n with O => [] | S k => (v mod 256) :: enc_le k (v / 256) end.
Fixpoint dec_le (bs : bytes) : N :=
  match bs with [] => 0 | b :: t => b + 256 * dec_le t end.

Definition enc_uint (e : endian) (n : nat) (v : N) : bytes :=
  match e with LSB => enc_le n v | MSB => rev (enc_le n v) end.
Definition dec_uint (e : endian) (bs : bytes) : N :=
  match e with LSB => dec_le bs | MSB => dec_le (rev bs) end.

Definition is_bytes (bs : bytes) : Prop := Forall (fun b => b < 256) bs.
Definition is_bytesb (bs : bytes) : bool := forallb (fun b => b <? 256) bs.

Lemma is_bytesb_spec bs : is_bytesb bs = true <-> is_bytes bs.
Proof.
  unfold is_bytesb, is_bytes; rewrite forallb_forall, Forall_forall.
  split; intros H x Hx; specialize (H x Hx); lia.
Qed.

Lemma enc_le_length n v : length (enc_le n v) = n.
Proof. revert v; induction n as [|k IH]; intro v; cbn [enc_le length]; [reflexivity|now rewrite IH]. Qed.
Lemma enc_uint_length e n v : length (enc_uint e n v) = n.
Proof. destruct e; cbn [enc_uint]; rewrite ?rev_length; apply enc_le_length. Qed.
Lemma lenN_enc_uint e n v : lenN (enc_uint e n v) = N.of_nat n.
Proof. rewrite ?lenN_length; now rewrite enc_uint_length. Qed.

Lemma enc_le_is_bytes n v : is_bytes (enc_le n v).
Proof.
  revert v; induction n as [|k IH]; intro v; cbn [enc_le]; constructor; [|apply IH].
  apply N.mod_lt; lia.
Qed.
Lemma enc_uint_is_bytes e n v : is_bytes (enc_uint e n v).
Proof.
  destruct e; cbn [enc_uint]; [apply enc_le_is_bytes|].
  apply Forall_rev, enc_le_is_bytes.
Qed.

Lemma dec_enc_le n v : dec_le (enc_le n v) = v mod 256 ^ N.of_nat n.
Proof.
  revert v; induction n as [|k IH]; intro v.
  - cbn [enc_le dec_le]. change (N.of_nat 0) with 0. rewrite N.pow_0_r, N.mod_1_r. reflexivity.
  - cbn [enc_le dec_le]. rewrite IH.
    replace (N.of_nat (S k)) with (N.succ (N.of_nat k)) by lia.
    rewrite N.pow_succ_r'.
    set (P := 256 ^ N.of_nat k).
    assert (HP : P <> 0) by (apply N.pow_nonzero; lia).
    rewrite N.mod_mul_r by lia. reflexivity.
Qed.

Lemma dec_enc_uint e n v : dec_uint e (enc_uint e n v) = v mod 256 ^ N.of_nat n.
Proof. destruct e; cbn [enc_uint dec_uint]; rewrite ?rev_involutive; apply dec_enc_le. Qed.

Lemma dec_enc_uint_small e n v : v < 256 ^ N.of_nat n -> dec_uint e (enc_uint e n v) = v.
Proof. intros H; rewrite dec_enc_uint; now apply N.mod_small. Qed.

Lemma dec_le_lt bs : is_bytes bs -> dec_le bs < 256 ^ lenN bs.
Proof.
  induction 1 as [|b t Hb Ht IH]; cbn [dec_le].
  - cbn; lia.
  - rewrite lenN_cons, N.add_1_l, N.pow_succ_r'. lia.
Qed.

Lemma enc_dec_le bs : is_bytes bs -> enc_le (length bs) (dec_le bs) = bs.
Proof.
  induction 1 as [|b t Hb Ht IH]; cbn [dec_le length enc_le]; [reflexivity|].
  f_equal.
  - unfold is_bytes in *. lia.
  - assert (E : (b + 256 * dec_le t) / 256 = dec_le t) by lia. rewrite E. exact IH.
Qed.

Lemma enc_dec_uint e bs : is_bytes bs -> enc_uint e (length bs) (dec_uint e bs) = bs.
Proof.
  intros H; destruct e; cbn [enc_uint dec_uint]; [now apply enc_dec_le|].
  rewrite <- (rev_length bs), enc_dec_le by now apply Forall_rev.
  apply rev_involutive.
Qed.

(* the two encodings of the same value are byte reversals of each other: this
   is what the endianness convertor implements *)
Lemma enc_uint_rev n v : enc_uint MSB n v = rev (enc_uint LSB n v).
Proof. reflexivity. Qed.

(* ---- C strings inside a buffer ---- *)
(* index of the first 0 byte within the first [limit] bytes of [bs] *)
Fixpoint find0 (bs : bytes) (limit : N) (acc : N) : option N :=
  match bs with
  | [] => None
  | b :: t => if limit =? 0 then None
              else if b =? 0 then Some acc else find0 t (limit - 1) (N.succ acc)
  end.

(* the NUL-free prefix up to the first 0 (or everything when there is none) *)
Fixpoint take_cstr (bs : bytes) : bytes :=
  match bs with
  | [] => []
  | b :: t => if b =? 0 then [] else b :: take_cstr t
  end.

Lemma take_cstr_nul_free bs : Forall (fun b => b <> 0) (take_cstr bs).
Proof.
  induction bs as [|b t IH]; cbn [take_cstr]; [constructor|].
  destruct (N.eqb_spec b 0); constructor; assumption.
Qed.

Lemma take_cstr_app_nul s rest : Forall (fun b => b <> 0) s -> take_cstr (s ++ 0 :: rest) = s.
Proof.
  induction 1 as [|b t Hb Ht IH]; cbn [app take_cstr].
  - reflexivity.
  - destruct (N.eqb_spec b 0); [contradiction|]. now rewrite IH.
Qed.

Lemma find0_app_nul s rest limit acc :
  Forall (fun b => b <> 0) s -> lenN s < limit ->
  find0 (s ++ 0 :: rest) limit acc = Some (acc + lenN s).
Proof.
  intros Hs; revert limit acc; induction Hs as [|b t Hb Ht IH]; intros limit acc Hl; cbn [app find0].
  - rewrite lenN_nil in *. destruct (N.eqb_spec limit 0); [lia|]. cbn. f_equal; lia.
  - rewrite lenN_cons in *. destruct (N.eqb_spec limit 0); [lia|].
    destruct (N.eqb_spec b 0); [contradiction|].
    rewrite IH by lia. f_equal; lia.
Qed.

Definition nul_free (s : bytes) : Prop := Forall (fun b => b <> 0) s.
Definition nul_freeb (s : bytes) : bool := forallb (fun b => negb (b =? 0)) s.
Lemma nul_freeb_spec s : nul_freeb s = true <-> nul_free s.
Proof.
  unfold nul_freeb, nul_free; rewrite forallb_forall, Forall_forall.
  split; intros H x Hx; specialize (H x Hx); lia.
Qed.
Lemma find0_Some l lim acc k : find0 l lim acc = Some k <->
  exists s r, l = s ++ 0 :: r /\ nul_free s /\ lenN s < lim /\ k = acc + lenN s.
Proof.
  split.
  - revert lim acc. induction l as [|b t IH]; intros lim acc; cbn [find0]; [discriminate|].
    destruct (N.eqb_spec lim 0); [discriminate|]. destruct (N.eqb_spec b 0) as [->|Hb].
    + intros [= <-]. exists [], t. repeat split; [constructor|cbn; lia..].
    + intros H. destruct (IH _ _ H) as (s & r & -> & Hs & Hl & ->).
      exists (b :: s), r. rewrite lenN_cons. repeat split; [now constructor|lia..].
  - intros (s & r & -> & Hs & Hl & ->). now apply find0_app_nul.
Qed.
Lemma find0_firstnN l n limit acc : limit <= n -> find0 (firstnN l n) limit acc = find0 l limit acc.
Proof.
  revert n limit acc; induction l as [|b t IH]; intros n limit acc Hl; cbn [firstnN find0]; [reflexivity|].
  destruct (N.eqb_spec n 0) as [->|Hn].
  - assert (limit = 0) as -> by lia. reflexivity.
  - cbn [find0]. destruct (N.eqb_spec limit 0); [reflexivity|].
    destruct (N.eqb_spec b 0); [reflexivity|]. apply IH. lia.
Qed.

(* list equality on bytes, boolean *)
Fixpoint bytes_eqb (a b : bytes) : bool :=
  match a, b with
  | [], [] => true
  | x :: a', y :: b' => (x =? y) && bytes_eqb a' b'
  | _, _ => false
  end.
Lemma bytes_eqb_spec a b : bytes_eqb a b = true <-> a = b.
Proof.
  revert b; induction a as [|x a IH]; destruct b as [|y b]; cbn [bytes_eqb]; try (split; congruence).
  rewrite andb_true_iff, IH, N.eqb_eq. split; [intros [-> ->]; reflexivity | intros [= -> ->]; auto].
Qed.

Lemma land_ones_mod v k : N.land v (N.ones k) = v mod 2 ^ k.
Proof. apply N.land_ones. Qed.
Lemma shiftr_div v k : N.shiftr v k = v / 2 ^ k.
Proof. apply N.shiftr_div_pow2. Qed.
Lemma shiftl_mul v k : N.shiftl v k = v * 2 ^ k.
Proof. apply N.shiftl_mul_pow2. Qed.

Lemma testbit_above x n i : x < 2 ^ n -> n <= i -> N.testbit x i = false.
Proof.
  intros Hx Hi. destruct (N.eq_dec x 0) as [->|Hnz]; [apply N.bits_0|].
  apply N.bits_above_log2. apply N.lt_le_trans with n; [apply N.log2_lt_pow2; lia|exact Hi].
Qed.
Lemma below_pow2 x n : (forall i, n <= i -> N.testbit x i = false) -> x < 2 ^ n.
Proof.
  intros H. destruct (N.eq_dec x 0) as [->|Hnz]; [apply N.neq_0_lt_0, N.pow_nonzero; discriminate|].
  apply N.log2_lt_pow2; [lia|]. destruct (N.lt_ge_cases (N.log2 x) n) as [|Hge]; [assumption|].
  pose proof (N.bit_log2 x Hnz) as Hb. rewrite (H _ Hge) in Hb. discriminate.
Qed.
Lemma lor_disjoint a b k : a < 2 ^ k -> N.lor a (b * 2 ^ k) = a + b * 2 ^ k.
Proof.
  intros Ha.
  assert (Hand : N.land a (b * 2 ^ k) = 0).
  { apply N.bits_inj; intro i. rewrite N.land_spec, N.bits_0.
    destruct (N.lt_ge_cases i k) as [Hi|Hi].
    - rewrite N.mul_pow2_bits_low by assumption. apply andb_false_r.
    - now rewrite (testbit_above a k i Ha Hi). }
  rewrite <- N.lxor_lor by assumption.
  symmetry; apply N.add_nocarry_lxor; assumption.
Qed.

Lemma lenN_updN {A} (l : list A) i v : lenN (updN l i v) = lenN l.
Proof.
  revert i; induction l as [|x t IH]; intro i; cbn [updN]; [reflexivity|].
  destruct (i =? 0); rewrite !lenN_cons; [reflexivity|]. now rewrite IH.
Qed.
Lemma nth_optN_updN_same {A} (l : list A) i v : i < lenN l -> nth_optN (updN l i v) i = Some v.
Proof.
  revert i; induction l as [|x t IH]; intros i H; [cbn in H; lia|]. rewrite lenN_cons in H.
  cbn [updN]. destruct (N.eqb_spec i 0) as [E|E]; cbn [nth_optN].
  - subst i. reflexivity.
  - destruct (N.eqb_spec i 0); [lia|]. apply IH. lia.
Qed.
Lemma nth_optN_updN_other {A} (l : list A) i k v : i <> k -> nth_optN (updN l i v) k = nth_optN l k.
Proof.
  revert i k; induction l as [|x t IH]; intros i k H; [reflexivity|].
  cbn [updN]. destruct (N.eqb_spec i 0) as [E|E]; cbn [nth_optN].
  - subst i. destruct (N.eqb_spec k 0); [lia|reflexivity].
  - destruct (N.eqb_spec k 0); [reflexivity|]. apply IH. lia.
Qed.

Lemma wrap_small w v : v < 2 ^ w -> wrap w v = v.
Proof. intros; unfold wrap; now apply N.mod_small. Qed.
Lemma wrap_lt w v : wrap w v < 2 ^ w.
Proof. unfold wrap. apply N.mod_lt, N.pow_nonzero. lia. Qed.
Lemma wrap_le w v : wrap w v <= v.
Proof. unfold wrap. apply N.mod_le, N.pow_nonzero. lia. Qed.
Lemma wrap_wrap w v : wrap w (wrap w v) = wrap w v.
Proof. unfold wrap. apply N.mod_mod. apply N.pow_nonzero. lia. Qed.
Lemma wrap64_sub a b : b <= a -> a < 2 ^ 64 -> wrap64 (a + (2 ^ 64 - b)) = a - b.
Proof.
  intros Hb Ha. unfold wrap64, wrap. replace (a + (2 ^ 64 - b)) with (a - b + 1 * 2 ^ 64) by lia.
  rewrite N.mod_add by discriminate. apply N.mod_small. lia.
Qed.
Lemma pow256 n : 256 ^ n = 2 ^ (8 * n).
Proof. change 256 with (2 ^ 8). now rewrite <- N.pow_mul_r. Qed.
Lemma div_mul_le a b : a / b * b <= a.
Proof. destruct (N.eq_dec b 0) as [->|H]; [lia|]. rewrite N.mul_comm. now apply N.mul_div_le. Qed.

(* a block [y] at offset [off] of [l] is written [skipnN l off = y ++ z] *)
Lemma skipnN_firstnN_comm {A} (l : list A) m n :
  skipnN (firstnN l n) m = firstnN (skipnN l m) (n - m).
Proof.
  rewrite !skipnN_skipn, !firstnN_firstn, skipn_firstn_comm. f_equal. lia.
Qed.
Lemma skipnN_skipnN {A} (l : list A) a b : skipnN (skipnN l a) b = skipnN l (a + b).
Proof.
  revert a b; induction l as [|x t IH]; intros a b; cbn [skipnN].
  - destruct (a =? 0); cbn [skipnN]; destruct (b =? 0); destruct (a + b =? 0); reflexivity.
  - destruct (N.eqb_spec a 0) as [E|E].
    + subst a. reflexivity.
    + destruct (N.eqb_spec (a + b) 0); [lia|]. rewrite IH. f_equal. lia.
Qed.
Lemma firstnN_app_ge {A} (a b : list A) n : lenN a <= n -> firstnN (a ++ b) n = a ++ firstnN b (n - lenN a).
Proof.
  rewrite lenN_length. intros H. rewrite !firstnN_firstn, firstn_app, firstn_all2 by lia. do 2 f_equal. lia.
Qed.
Lemma skipnN_mid {A} (pre t : list A) : skipnN (pre ++ t) (lenN pre) = t.
Proof. now apply skipnN_app_exact. Qed.
Lemma skipnN_after {A} (l x y : list A) off : skipnN l off = x ++ y -> skipnN l (off + lenN x) = y.
Proof. intros H. rewrite <- skipnN_skipnN, H. now apply skipnN_app_exact. Qed.
Lemma skipnN_block_le {A} (l x y : list A) off : skipnN l off = x ++ y -> lenN x <= lenN l.
Proof. intros H. apply (f_equal lenN) in H. rewrite lenN_skipnN, lenN_app in H. lia. Qed.
Lemma lenN_sliceN {A} (l : list A) off n : lenN (sliceN l off n) = N.min n (lenN l - off).
Proof. unfold sliceN. now rewrite lenN_firstnN, lenN_skipnN. Qed.
Lemma lenN_sliceN_le {A} (l : list A) off n : lenN (sliceN l off n) <= n.
Proof. rewrite lenN_sliceN. lia. Qed.
Lemma lenN_sliceN_in {A} (l : list A) off n : off + n <= lenN l -> lenN (sliceN l off n) = n.
Proof. rewrite lenN_sliceN. lia. Qed.
Lemma sliceN_0 {A} (l : list A) n : sliceN l 0 n = firstnN l n.
Proof. unfold sliceN. now rewrite skipnN_0. Qed.
Lemma sliceN_app_l {A} (a b : list A) off n : off + n <= lenN a -> sliceN (a ++ b) off n = sliceN a off n.
Proof.
  intros H. unfold sliceN. rewrite skipnN_app_le by lia. apply firstnN_app_le. rewrite lenN_skipnN. lia.
Qed.
Lemma sliceN_app_r {A} (a b : list A) k n : sliceN (a ++ b) (lenN a + k) n = sliceN b k n.
Proof. unfold sliceN. rewrite skipnN_app_ge by lia. f_equal. f_equal. lia. Qed.
Lemma sliceN_prefix_exact {A} (x y : list A) : sliceN (x ++ y) 0 (lenN x) = x.
Proof. unfold sliceN. rewrite skipnN_0. now apply firstnN_app_exact. Qed.
Lemma sliceN_sliceN {A} (l : list A) a n b m : b + m <= n -> sliceN (sliceN l a n) b m = sliceN l (a + b) m.
Proof.
  intros H. unfold sliceN. rewrite <- skipnN_skipnN.
  generalize (skipnN l a). intro l'. rewrite !firstnN_firstn, !skipnN_skipn.
  rewrite skipn_firstn_comm, firstn_firstn. f_equal. lia.
Qed.
Lemma sliceN_prefix {A} (l : list A) k off n : off + n <= k -> sliceN (firstnN l k) off n = sliceN l off n.
Proof.
  intros H. unfold sliceN. rewrite !firstnN_firstn, !skipnN_skipn. rewrite skipn_firstn_comm, firstn_firstn.
  f_equal. lia.
Qed.
Lemma sliceN_one {A} (l : list A) off d : off < lenN l -> sliceN l off 1 = [nthN l off d].
Proof.
  revert off; induction l as [|x t IH]; intros off H; [cbn in H; lia|]. rewrite lenN_cons in H.
  unfold sliceN. cbn [skipnN nthN]. destruct (N.eqb_spec off 0) as [E|E].
  - cbn [firstnN]. destruct (N.eqb_spec 1 0); [lia|]. now rewrite firstnN_0.
  - apply IH. lia.
Qed.

Lemma nthN_app_ge {A} (a b : list A) n d : lenN a <= n -> nthN (a ++ b) n d = nthN b (n - lenN a) d.
Proof. rewrite lenN_length. intros H. rewrite !nthN_nth, app_nth2 by lia. f_equal. lia. Qed.
Lemma nthN_skipnN {A} (l : list A) n k d : nthN (skipnN l n) k d = nthN l (n + k) d.
Proof.
  revert n k; induction l as [|x t IH]; intros n k; cbn [skipnN]; [reflexivity|].
  destruct (N.eqb_spec n 0) as [->|Hn]; [reflexivity|].
  rewrite IH. cbn [nthN]. destruct (N.eqb_spec (n + k) 0); [lia|]. f_equal. lia.
Qed.
Lemma nthN_app_lt {A} (a b : list A) n d : n < lenN a -> nthN (a ++ b) n d = nthN a n d.
Proof.
  revert n; induction a as [|x t IH]; intros n H; [cbn in H; lia|]. rewrite lenN_cons in H.
  cbn [app nthN]. destruct (N.eqb_spec n 0); [reflexivity|]. apply IH. lia.
Qed.
Lemma nthN_repeatN {A} (x : A) n k d : k < n -> nthN (repeatN x n) k d = x.
Proof.
  intros H. rewrite nthN_nth, repeatN_repeat.
  rewrite (nth_indep _ d x) by (rewrite repeat_length; lia). apply nth_repeat.
Qed.
Lemma nthN_beyond {A} (l : list A) n d : lenN l <= n -> nthN l n d = d.
Proof. intros H. rewrite nthN_nth. apply nth_overflow. rewrite lenN_length in H. lia. Qed.
Lemma nthN_firstnN {A} (l : list A) n k d : k < n -> nthN (firstnN l n) k d = nthN l k d.
Proof.
  revert n k; induction l as [|x t IH]; intros n k H; cbn [firstnN]; [reflexivity|].
  destruct (N.eqb_spec n 0); [lia|]. cbn [nthN]. destruct (N.eqb_spec k 0); [reflexivity|]. apply IH. lia.
Qed.
Lemma nthN_ext (a b : bytes) : lenN a = lenN b -> (forall i, i < lenN a -> nthN a i 0 = nthN b i 0) -> a = b.
Proof.
  revert b; induction a as [|x t IH]; intros [|y u] HL H; cbn [lenN] in HL; try lia; [reflexivity|].
  rewrite !lenN_cons in *. f_equal.
  - specialize (H 0 ltac:(lia)). cbn in H. exact H.
  - apply IH; [lia|]. intros i Hi. specialize (H (i + 1) ltac:(lia)). cbn [nthN] in H.
    destruct (N.eqb_spec (i + 1) 0); [lia|]. now replace (i + 1 - 1) with i in H by lia.
Qed.
Lemma nthN_sliceN (l : bytes) off n i : i < n -> off + n <= lenN l -> nthN (sliceN l off n) i 0 = nthN l (off + i) 0.
Proof. intros Hi Hl. unfold sliceN. rewrite nthN_firstnN by exact Hi. apply nthN_skipnN. Qed.
Lemma nth_optN_lt {E} (es : list E) j y : nth_optN es j = Some y -> j < lenN es.
Proof.
  revert j; induction es as [|z t IH]; intros j; cbn [nth_optN]; [discriminate|].
  rewrite lenN_cons. destruct (N.eqb_spec j 0); [lia|]. intros H. apply IH in H. lia.
Qed.
Lemma nth_optN_some {E} (es : list E) j : j < lenN es -> exists x, nth_optN es j = Some x.
Proof.
  revert j; induction es as [|z t IH]; intros j; cbn [nth_optN]; [cbn; lia|].
  rewrite lenN_cons. destruct (N.eqb_spec j 0); [eauto|]. intros H. apply IH. lia.
Qed.
Lemma nth_optN_In {A} (l : list A) j x : nth_optN l j = Some x -> In x l.
Proof. rewrite nth_optN_nth_error. apply nth_error_In. Qed.
Lemma In_nth_optN {A} (l : list A) x : In x l -> exists j, nth_optN l j = Some x.
Proof.
  intros H. apply In_nth_error in H. destruct H as (n & Hn). exists (N.of_nat n).
  rewrite nth_optN_nth_error, Nnat.Nat2N.id. exact Hn.
Qed.
Lemma nth_optN_succ {A} (x : A) t j : nth_optN (x :: t) (j + 1) = nth_optN t j.
Proof. cbn [nth_optN]. destruct (N.eqb_spec (j + 1) 0); [lia|]. f_equal. lia. Qed.
Lemma nth_optN_mid {A} (pre : list A) x t : nth_optN (pre ++ x :: t) (lenN pre) = Some x.
Proof.
  induction pre as [|h p IH]; cbn [app nth_optN].
  - reflexivity.
  - rewrite lenN_cons. destruct (N.eqb_spec (1 + lenN p) 0); [lia|].
    replace (1 + lenN p - 1) with (lenN p) by lia. exact IH.
Qed.
Lemma nth_optN_split2 {A} (l : list A) : forall i j a b, i < j -> nth_optN l i = Some a -> nth_optN l j = Some b ->
  exists pre mid post, l = pre ++ a :: mid ++ b :: post.
Proof.
  induction l as [|x t IH]; intros i j a b Hij Ha Hb; cbn [nth_optN] in Ha, Hb; [discriminate|].
  destruct (N.eqb_spec j 0) as [Ej|Hj]; [lia|].
  destruct (N.eqb_spec i 0) as [Ei|Hi].
  - injection Ha as ->. destruct (in_split _ _ (nth_optN_In _ _ _ Hb)) as (l1 & l2 & ->). exists [], l1, l2. reflexivity.
  - destruct (IH (i - 1) (j - 1) a b ltac:(lia) Ha Hb) as (pre & mid & post & ->).
    exists (x :: pre), mid, post. reflexivity.
Qed.
Lemma nth_optN_repeatN {A} (x : A) n i : i < n -> nth_optN (repeatN x n) i = Some x.
Proof.
  intros H. rewrite nth_optN_nth_error, repeatN_repeat.
  assert (Hl : (N.to_nat i < length (repeat x (N.to_nat n)))%nat) by (rewrite repeat_length; lia).
  destruct (nth_error (repeat x (N.to_nat n)) (N.to_nat i)) as [y|] eqn:E.
  - apply nth_error_In in E. apply repeat_spec in E. now subst.
  - apply nth_error_None in E. lia.
Qed.
Lemma skipnN_nth {A} (l : list A) i x : nth_optN l i = Some x -> skipnN l i = x :: skipnN l (i + 1).
Proof.
  revert i; induction l as [|y t IH]; intros i H; cbn [nth_optN] in H; [discriminate|].
  destruct (N.eqb_spec i 0) as [Ei|Hi].
  - subst i. injection H as ->. cbn [skipnN N.add N.eqb Pos.eqb]. f_equal. cbn [N.sub]. symmetry. apply skipnN_0.
  - cbn [skipnN]. destruct (N.eqb_spec i 0); [contradiction|]. destruct (N.eqb_spec (i + 1) 0); [lia|].
    rewrite (IH _ H). f_equal. f_equal. lia.
Qed.
Lemma updN_same {A} (l : list A) : forall i x, nth_optN l i = Some x -> updN l i x = l.
Proof.
  induction l as [|y t IH]; intros i x H; [reflexivity|]. cbn [nth_optN] in H. cbn [updN].
  destruct (i =? 0); [now injection H as ->|]. f_equal. now apply IH.
Qed.
Lemma updN_updN {A} (l : list A) i x y : updN (updN l i x) i y = updN l i y.
Proof.
  revert i; induction l as [|h t IH]; intros i; cbn [updN]; [reflexivity|].
  destruct (N.eqb_spec i 0) as [->|H]; cbn [updN].
  - reflexivity.
  - destruct (N.eqb_spec i 0); [contradiction|]. now rewrite IH.
Qed.
Lemma updN_mid {A} (pre : list A) x t y : updN (pre ++ x :: t) (lenN pre) y = pre ++ y :: t.
Proof.
  induction pre as [|a p IH]; cbn [app updN lenN]; [reflexivity|].
  destruct (N.eqb_spec (N.succ (lenN p)) 0); [lia|]. f_equal. rewrite <- IH. f_equal. lia.
Qed.
Lemma updN_split {A} (l : list A) i x v : nth_optN l i = Some x ->
  exists l1 l2, l = l1 ++ x :: l2 /\ lenN l1 = i /\ updN l i v = l1 ++ v :: l2.
Proof.
  revert i; induction l as [|y t IH]; intros i H; cbn [nth_optN] in H; [discriminate|].
  cbn [updN]. destruct (N.eqb_spec i 0) as [E|E].
  - injection H as ->. exists [], t. subst i. auto.
  - destruct (IH _ H) as (l1 & l2 & -> & Hl & Hu). exists (y :: l1), l2. rewrite lenN_cons, Hu. repeat split. lia.
Qed.
Lemma updN_pointwise {A} (R : A -> A -> Prop) (l : list A) i x0 x1 :
  (forall a, R a a) -> nth_optN l i = Some x0 -> R x0 x1 ->
  forall j a, nth_optN l j = Some a -> exists a', nth_optN (updN l i x1) j = Some a' /\ R a a'.
Proof.
  intros Hr Hi Hx j a Hj. destruct (N.eq_dec i j) as [<-|Hne].
  - rewrite nth_optN_updN_same by (eapply nth_optN_lt; exact Hi). exists x1. split; [reflexivity|]. congruence.
  - rewrite nth_optN_updN_other by exact Hne. eauto.
Qed.

Lemma Forall_updN {A} (P : A -> Prop) l i x : Forall P l -> P x -> Forall P (updN l i x).
Proof.
  intros Hl Hx. revert i; induction Hl as [|y t Hy Ht IH]; intro i; cbn [updN]; [constructor|].
  destruct (i =? 0); constructor; auto.
Qed.
Lemma Forall_nth_optN {A} (P : A -> Prop) l i x : Forall P l -> nth_optN l i = Some x -> P x.
Proof.
  intros Hl. revert i; induction Hl as [|y t Hy Ht IH]; intro i; cbn [nth_optN]; [discriminate|].
  destruct (i =? 0); [intros [= <-]; exact Hy|apply IH].
Qed.
Lemma Forall_firstnN {A} (P : A -> Prop) l n : Forall P l -> Forall P (firstnN l n).
Proof.
  intros H. revert n; induction H as [|x t Hx Ht IH]; intro n; cbn [firstnN]; [constructor|].
  destruct (n =? 0); constructor; auto.
Qed.
Lemma Forall_skipnN {A} (P : A -> Prop) l n : Forall P l -> Forall P (skipnN l n).
Proof.
  intros H. revert n; induction H as [|x t Hx Ht IH]; intro n; cbn [skipnN]; [constructor|].
  destruct (n =? 0); [constructor; auto|apply IH].
Qed.
Lemma Forall_rev_append {A} (P : A -> Prop) a b : Forall P a -> Forall P b -> Forall P (rev_append a b).
Proof. intros Ha Hb. rewrite rev_append_rev. apply Forall_app. split; [now apply Forall_rev|exact Hb]. Qed.
Lemma Forall2_lenN {A B} (R : A -> B -> Prop) l l' : Forall2 R l l' -> lenN l' = lenN l.
Proof. induction 1; [reflexivity|]. rewrite !lenN_cons. lia. Qed.
Lemma Forall2_impl {A B} {R R' : A -> B -> Prop} {l l'} : (forall a b, R a b -> R' a b) -> Forall2 R l l' -> Forall2 R' l l'.
Proof. intros H. induction 1; constructor; auto. Qed.
Lemma Forall2_impl_In {A B} (P Q : A -> B -> Prop) l m :
  (forall a b, In a l -> P a b -> Q a b) -> Forall2 P l m -> Forall2 Q l m.
Proof.
  intros Hf H. induction H as [|a b t mt Hab _ IH]; constructor; [apply Hf; [now left|exact Hab]|].
  apply IH. intros x y Hx. apply Hf. now right.
Qed.
Lemma Forall2_In_r {A B} (R : A -> B -> Prop) l l' : Forall2 R l l' -> forall b, In b l' -> exists a, In a l /\ R a b.
Proof.
  induction 1 as [|x y t t' Hxy HF IH]; intros b Hb; [contradiction|]. destruct Hb as [<-|Hb].
  - exists x. split; [now left|exact Hxy].
  - destruct (IH b Hb) as (a & Ha & Ra). exists a. split; [now right|exact Ra].
Qed.
Lemma Forall2_Forall {A B} {R : A -> B -> Prop} {P : A -> Prop} {Q : B -> Prop} {l l'} :
  (forall a b, R a b -> P a -> Q b) -> Forall2 R l l' -> Forall P l -> Forall Q l'.
Proof.
  intros H HF HP. apply Forall_forall. intros b Hb. destruct (Forall2_In_r R l l' HF b Hb) as (a & Ha & Ra).
  rewrite Forall_forall in HP. eauto.
Qed.
Lemma Forall2_mid {A B C} (Q : A -> C -> Prop) (R : B -> C -> Prop) l m n :
  Forall2 Q l n -> Forall2 R m n -> Forall2 (fun a b => exists c, Q a c /\ R b c) l m.
Proof. intros HQ. revert m. induction HQ; intros m HR; inversion HR; subst; constructor; eauto. Qed.
Lemma Forall2_both_In {A B} (P Q : A -> B -> Prop) l m j :
  Forall2 P l m -> Forall2 Q l m -> In j l -> exists s, In s m /\ P j s /\ Q j s.
Proof.
  intros HP. revert j. induction HP as [|a b l' m' Hab HP IH]; intros j HQ Hin; [contradiction|].
  inversion HQ as [|? ? ? ? Qab HQ']; subst. destruct Hin as [<-|Hin].
  - exists b. split; [now left|split; assumption].
  - destruct (IH j HQ' Hin) as (s & S1 & S2 & S3). exists s. split; [now right|split; assumption].
Qed.
Lemma Forall2_of_nth {A B} (R : A -> B -> Prop) : forall (l : list A) (l' : list B),
  lenN l' = lenN l -> (forall j x, nth_optN l j = Some x -> exists y, nth_optN l' j = Some y /\ R x y) ->
  Forall2 R l l'.
Proof.
  induction l as [|a t IH]; intros l' HL H.
  - destruct l'; [constructor|]. rewrite lenN_cons in HL. cbn [lenN] in HL. change (lenN (@nil A)) with 0 in HL. lia.
  - destruct l' as [|b t']; [rewrite lenN_cons in HL; change (lenN (@nil B)) with 0 in HL; lia|].
    destruct (H 0 a eq_refl) as (y & Hy & Ry). cbn [nth_optN N.eqb] in Hy. injection Hy as <-.
    constructor; [exact Ry|]. apply IH; [rewrite !lenN_cons in HL; lia|].
    intros j x Hj. destruct (H (j + 1) x) as (y2 & Hy & Ry2).
    + cbn [nth_optN]. destruct (N.eqb_spec (j + 1) 0); [lia|]. replace (j + 1 - 1) with j by lia. exact Hj.
    + cbn [nth_optN] in Hy. destruct (N.eqb_spec (j + 1) 0); [lia|]. replace (j + 1 - 1) with j in Hy by lia. eauto.
Qed.
Lemma Forall2_nth_l {A B} (R : A -> B -> Prop) l l' : Forall2 R l l' ->
  forall j x, nth_optN l j = Some x -> exists y, nth_optN l' j = Some y /\ R x y.
Proof.
  induction 1 as [|a b t t' Hab HF IH]; intros j x Hj; [discriminate|].
  cbn [nth_optN] in *. destruct (j =? 0); [injection Hj as <-; eauto|]. now apply IH.
Qed.
Lemma Forall_of_nth_optN {A} (P : A -> Prop) (l : list A) idxs ms :
  Forall2 (fun i s => nth_optN l i = Some s) idxs ms -> Forall P l -> Forall P ms.
Proof. intros HF HP. induction HF as [|i s t mt Hi _ IH]; constructor; [exact (Forall_nth_optN P l i s HP Hi)|exact IH]. Qed.
Lemma Forall2_nth_frame {A} (l1 l2 : list A) idxs new :
  (forall i, In i idxs -> nth_optN l2 i = nth_optN l1 i) ->
  Forall2 (fun i s => nth_optN l1 i = Some s) idxs new -> Forall2 (fun i s => nth_optN l2 i = Some s) idxs new.
Proof. intros Hf. apply Forall2_impl_In. intros i s Hi H. now rewrite Hf. Qed.
Lemma fold_left_ext {A B} (f g : A -> B -> A) : (forall a b, f a b = g a b) ->
  forall l a, fold_left f l a = fold_left g l a.
Proof. intros H. induction l as [|b t IH]; intro a; cbn [fold_left]; [reflexivity|]. now rewrite H. Qed.
