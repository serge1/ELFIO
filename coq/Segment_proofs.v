(* Segment_proofs.v — C04, segment clauses, for the basic case: a segment whose
   member sections are allocated, hold file data, and get their addresses from
   the writer (automatic addresses).  The members are laid out one after the
   other, each aligned, at the same distance from the segment start in the file
   as in memory; the segment's file size and memory size cover them.

   The pass over such a segment is first shown to compute a plain function of the
   member list ([place_members]); what the property asks for (the chain, the
   sizes, the second pass being the identity) is then read off that function. *)
From ElfioV Require Import Bytes Mem Stream SectionData Strings Elfio Table Loader Layout Layout_proofs.
From Coq Require Import ZifyBool ZifyN ZifyNat.
Local Open Scope N_scope.

(* a member the writer places itself *)
Definition auto_member (s : section) : Prop :=
  s_index s <> 0 /\ sh_type s <> SHT_NULL /\ sh_type s <> SHT_NOBITS /\ s_addr_set s = false /\
  N.land (sh_flags s) SHF_ALLOC = SHF_ALLOC /\ N.land (sh_flags s) SHF_TLS <> SHF_TLS.

Definition eff_align (s : section) : N := if sh_addralign s =? 0 then 1 else sh_addralign s.

Lemma eff_align_pos s : 0 < eff_align s.
Proof. unfold eff_align. destruct (N.eqb_spec (sh_addralign s) 0); lia. Qed.

Lemma eff_align_with s a o : eff_align (with_offset (with_addr s a) o) = eff_align s.
Proof. reflexivity. Qed.

Definition member_pad (pos : N) (s : section) : N := (eff_align s - pos mod eff_align s) mod eff_align s.

Lemma member_pad_spec pos s : member_pad pos s < eff_align s /\ (pos + member_pad pos s) mod eff_align s = 0.
Proof.
  pose proof (eff_align_pos s). split; [apply N.mod_lt; lia|exact (proj2 (proj2 (align_up pos _ (eff_align_pos s))))].
Qed.

Definition placed_at (vaddr ss off : N) (s : section) : section :=
  with_offset (with_addr s (vaddr + off - ss)) off.

Fixpoint place_members (vaddr ss pos : N) (ms : list section) : list section * N :=
  match ms with
  | [] => ([], pos)
  | s :: t =>
      let off := pos + member_pad pos s in
      let r := place_members vaddr ss (off + sh_size s) t in (placed_at vaddr ss off s :: fst r, snd r)
  end.

Fixpoint upd_list (secs : list section) (idxs : list N) (new : list section) : list section :=
  match idxs, new with
  | i :: it, s :: st => upd_list (updN secs i s) it st
  | _, _ => secs
  end.

Definition mbudget (ms : list section) : N := fold_right (fun s acc => eff_align s + sh_size s + acc) 0 ms.

Lemma place_members_bounds vaddr ss : forall ms pos,
  pos <= snd (place_members vaddr ss pos ms) /\ snd (place_members vaddr ss pos ms) <= pos + mbudget ms.
Proof.
  induction ms as [|s t IH]; intro pos; cbn [place_members snd mbudget fold_right]; [lia|]. fold (mbudget t).
  pose proof (member_pad_spec pos s) as [Hp _]. specialize (IH (pos + member_pad pos s + sh_size s)). lia.
Qed.

Lemma Forall2_nth_updN_other (secs : list section) i x idxs ms :
  ~ In i idxs -> Forall2 (fun j s => nth_optN secs j = Some s) idxs ms ->
  Forall2 (fun j s => nth_optN (updN secs i x) j = Some s) idxs ms.
Proof.
  intros Hni. apply Forall2_nth_frame. intros j Hj. apply nth_optN_updN_other. intro; subst; contradiction.
Qed.

Lemma lenN_upd_list : forall idxs new secs, lenN (upd_list secs idxs new) = lenN secs.
Proof.
  induction idxs as [|i t IH]; intros [|s st] secs; cbn [upd_list]; try reflexivity. now rewrite IH, lenN_updN.
Qed.

Lemma upd_list_other j : forall idxs new secs, ~ In j idxs -> nth_optN (upd_list secs idxs new) j = nth_optN secs j.
Proof.
  induction idxs as [|i t IH]; intros [|s st] secs Hj; cbn [upd_list]; try reflexivity.
  rewrite IH by (intro; apply Hj; now right). apply nth_optN_updN_other. intro; subst; apply Hj; now left.
Qed.

Lemma upd_list_nth : forall idxs (old new : list section) secs,
  NoDup idxs -> Forall2 (fun i s => nth_optN secs i = Some s) idxs old -> lenN new = lenN old ->
  Forall2 (fun i s => nth_optN (upd_list secs idxs new) i = Some s) idxs new.
Proof.
  induction idxs as [|i t IH]; intros old new secs Hnd HF HL; inversion HF as [|? o ? ot Ho HFt]; subst.
  - destruct new; [constructor|]. rewrite lenN_cons, lenN_nil in HL. lia.
  - destruct new as [|s st]; [rewrite lenN_cons, lenN_nil in HL; lia|]. inversion Hnd as [|? ? Hni Hndt]; subst.
    cbn [upd_list]. constructor.
    + rewrite upd_list_other by exact Hni. apply nth_optN_updN_same. exact (nth_optN_lt _ _ _ Ho).
    + apply (IH ot); [exact Hndt|now apply Forall2_nth_updN_other|rewrite !lenN_cons in HL; lia].
Qed.




Lemma lenN_place_members vaddr ss : forall ms pos, lenN (fst (place_members vaddr ss pos ms)) = lenN ms.
Proof. induction ms as [|s t IH]; intro pos; cbn [place_members fst]; [reflexivity|]. now rewrite !lenN_cons, IH. Qed.

Lemma write_seg_step_auto g ss w index sec bound :
  nth_optN (ws_secs w) index = Some sec -> auto_member sec -> nth_optN (ws_gen w) index = Some false ->
  bound <= 2 ^ 64 -> ss <= ws_pos w ->
  p_vaddr g + ws_pos w + eff_align sec + sh_size sec < bound ->
  ws_mem w + eff_align sec + sh_size sec < bound -> ws_fsz w + eff_align sec + sh_size sec < bound ->
  let pad := member_pad (ws_pos w) sec in
  write_seg_step g ss w index =
    Ok (Some (mkW (updN (ws_secs w) index (placed_at (p_vaddr g) ss (ws_pos w + pad) sec)) (gen_set (ws_gen w) index)
                  (ws_pos w + pad + sh_size sec) (ws_mem w + (sh_size sec + pad)) (ws_fsz w + (sh_size sec + pad)))).
Proof.
  intros Hn (Hi & Ht1 & Ht2 & Ha & Hal & Htls) Hg Hb64 Hss Hv Hm Hf. cbv zeta.
  pose proof (member_pad_spec (ws_pos w) sec) as [Hpad _].
  unfold write_seg_step. rewrite Hn.
  apply N.eqb_neq in Ht1, Ht2, Hi, Htls. apply N.eqb_eq in Hal.
  rewrite Ht1. unfold gen_get. rewrite Hg. cbn [bind]. rewrite Ha. cbn [negb andb].
  fold (eff_align sec). fold (member_pad (ws_pos w) sec). set (pad := member_pad (ws_pos w) sec) in *. clearbody pad.
  cbn [bind]. rewrite Ht2, Hal, Htls. cbn [andb negb].
  rewrite !(add64_id (ws_pos w) pad) by lia. rewrite !(add64_id (p_vaddr g)) by lia. rewrite !sub64_id by lia.
  cbn [s_index with_addr with_offset sh_type sh_size]. rewrite Hi.
  cbn [s_index with_addr with_offset sh_type sh_size]. rewrite Ht2. cbn [negb].
  rewrite !(add64_id (sh_size sec) pad) by lia. rewrite !add64_id by lia. reflexivity.
Qed.

Theorem write_segment_data_auto g ss bound : forall idxs ms w,
  NoDup idxs -> Forall2 (fun i s => nth_optN (ws_secs w) i = Some s) idxs ms -> Forall auto_member ms ->
  (forall i, In i idxs -> nth_optN (ws_gen w) i = Some false) ->
  bound <= 2 ^ 64 -> ws_pos w = ss + ws_fsz w -> ws_mem w = ws_fsz w -> p_vaddr g + ws_pos w + mbudget ms < bound ->
  exists gen',
    write_segment_data g ss idxs w =
      Ok (mkW (upd_list (ws_secs w) idxs (fst (place_members (p_vaddr g) ss (ws_pos w) ms))) gen'
              (snd (place_members (p_vaddr g) ss (ws_pos w) ms))
              (snd (place_members (p_vaddr g) ss (ws_pos w) ms) - ss)
              (snd (place_members (p_vaddr g) ss (ws_pos w) ms) - ss), true).
Proof.
  induction idxs as [|i t IH]; intros ms w Hnd HF Hauto Hgen Hb Hpos Hmem Hbud;
    inversion HF as [|? sec ? mt Hsec HFt]; subst.
  - exists (ws_gen w). cbn. destruct w; cbn in *. subst. repeat f_equal; lia.
  - inversion Hauto as [|? ? Ha Hat]; subst. inversion Hnd as [|? ? Hni Hndt]; subst.
    cbn [mbudget fold_right] in Hbud. fold (mbudget mt) in Hbud.
    pose proof (member_pad_spec (ws_pos w) sec) as [Hpad _].
    cbn [write_segment_data place_members fst snd upd_list].
    rewrite (write_seg_step_auto g ss w i sec bound Hsec Ha (Hgen i (or_introl eq_refl)) Hb) by lia.
    cbv zeta. cbn [bind]. set (pad := member_pad (ws_pos w) sec) in *. clearbody pad.
    match goal with |- context [write_segment_data g ss t ?w1] =>
      destruct (IH mt w1 Hndt) as (gen' & ->); cbn [ws_secs ws_gen ws_pos ws_mem ws_fsz]; try assumption; try lia end.
    + now apply Forall2_nth_updN_other.
    + intros j Hj. unfold gen_set. rewrite nth_optN_updN_other; [apply Hgen; now right|]. intro; subst; contradiction.
    + exists gen'. reflexivity.
Qed.

(* the members of a segment, in listing order, as found in the final section list *)
Fixpoint mchain (g : segment) (seg_start : N) (secs' : list section) (idxs : list N) (lo hi : N) : Prop :=
  match idxs with
  | [] => lo <= hi
  | i :: t => exists s, nth_optN secs' i = Some s /\ lo <= sh_offset s /\ sh_offset s mod eff_align s = 0 /\
                        sh_addr s = p_vaddr g + (sh_offset s - seg_start) /\ seg_start <= sh_offset s /\
                        mchain g seg_start secs' t (sh_offset s + sh_size s) hi
  end.

(* the end of the last member *)
Fixpoint mend (secs' : list section) (idxs : list N) (lo : N) : N :=
  match idxs with
  | [] => lo
  | i :: t => match nth_optN secs' i with Some s => mend secs' t (sh_offset s + sh_size s) | None => lo end
  end.

(* a member as the first pass leaves it: address recorded *)
Definition placed_member (s : section) : Prop :=
  s_index s <> 0 /\ sh_type s <> SHT_NULL /\ sh_type s <> SHT_NOBITS /\ s_addr_set s = true /\ sh_size s <> 0 /\
  N.land (sh_flags s) SHF_ALLOC = SHF_ALLOC /\ N.land (sh_flags s) SHF_TLS <> SHF_TLS /\ sh_offset s < 2 ^ xw (s_cls s).

Lemma placed_at_fields vaddr ss off s bound :
  bound <= 2 ^ xw (s_cls s) -> ss <= off -> vaddr + off < bound ->
  sh_offset (placed_at vaddr ss off s) = off /\ sh_addr (placed_at vaddr ss off s) = vaddr + (off - ss).
Proof. intros Hc Hs Hb. cbn. rewrite !wrap_small by lia. lia. Qed.

Theorem place_members_chain g ss bound secs' : forall ms idxs pos,
  Forall2 (fun i s => nth_optN secs' i = Some s) idxs (fst (place_members (p_vaddr g) ss pos ms)) ->
  Forall (fun s => bound <= 2 ^ xw (s_cls s)) ms -> ss <= pos -> p_vaddr g + pos + mbudget ms < bound ->
  mchain g ss secs' idxs pos (snd (place_members (p_vaddr g) ss pos ms)) /\
  mend secs' idxs pos = snd (place_members (p_vaddr g) ss pos ms).
Proof.
  induction ms as [|s t IH]; intros idxs pos HF Hc Hs Hb; cbn [place_members fst snd] in *;
    inversion HF as [|i ? it ? Hi HFt]; subst; cbn [mchain mend]; [split; [lia|reflexivity]|].
  inversion Hc as [|? ? Hc1 Hc2]; subst. cbn [mbudget fold_right] in Hb. fold (mbudget t) in Hb.
  pose proof (proj1 (member_pad_spec pos s)) as Hp. set (off := pos + member_pad pos s) in *.
  destruct (placed_at_fields (p_vaddr g) ss off s bound Hc1) as [Eo Ea]; [lia..|].
  destruct (IH it (off + sh_size s) HFt Hc2) as [Ch Me]; [lia..|].
  rewrite Hi. change (sh_size (placed_at (p_vaddr g) ss off s)) with (sh_size s). rewrite Eo. split; [|exact Me].
  exists (placed_at (p_vaddr g) ss off s). rewrite Eo. change (sh_size (placed_at (p_vaddr g) ss off s)) with (sh_size s).
  split; [reflexivity|]. split; [lia|]. split; [exact (proj2 (member_pad_spec pos s))|]. split; [exact Ea|]. split; [lia|exact Ch].
Qed.

Lemma place_members_placed vaddr ss bound : forall ms pos,
  Forall auto_member ms -> Forall (fun s => sh_size s <> 0) ms -> Forall (fun s => bound <= 2 ^ xw (s_cls s)) ms ->
  pos + mbudget ms < bound ->
  Forall placed_member (fst (place_members vaddr ss pos ms)).
Proof.
  induction ms as [|s t IH]; intros pos Ha Hz Hc Hb; cbn [place_members fst]; [constructor|].
  inversion Ha as [|? ? (A1 & A2 & A3 & A4 & A5 & A6) Hat]; inversion Hz; inversion Hc; subst.
  cbn [mbudget fold_right] in Hb. fold (mbudget t) in Hb. destruct (member_pad_spec pos s) as [Hp _].
  constructor; [|apply IH; try assumption; lia].
  unfold placed_member, placed_at. cbn. rewrite wrap_small by lia. repeat split; try assumption. lia.
Qed.

Lemma place_members_moved vaddr ss : forall ms pos,
  Forall2 (fun s s' => exists a o, s' = with_offset (with_addr s a) o) ms (fst (place_members vaddr ss pos ms)).
Proof. induction ms as [|s t IH]; intro pos; cbn [place_members fst]; constructor; [unfold placed_at; eauto|apply IH]. Qed.

Lemma place_members_at vaddr ss secs idxs ms pos :
  NoDup idxs -> Forall2 (fun i s => nth_optN secs i = Some s) idxs ms ->
  Forall2 (fun i s => exists a o, nth_optN (upd_list secs idxs (fst (place_members vaddr ss pos ms))) i = Some (with_offset (with_addr s a) o))
          idxs ms.
Proof.
  intros Hnd HF. pose proof (upd_list_nth _ ms _ secs Hnd HF (lenN_place_members vaddr ss ms pos)) as HU.
  eapply Forall2_impl_In; [|exact (Forall2_mid _ _ _ _ _ HU (place_members_moved vaddr ss ms pos))].
  intros i s _ (c & Hc & a & o & ->). eauto.
Qed.

(* where the segment starts: the next file offset congruent to the address *)
Lemma seg_start_congruent pos vaddr palign :
  let align := if 0 <? palign then palign else 1 in
  pos + align < 2 ^ 64 -> palign < 2 ^ 63 ->
  let pos1 := add64 pos ((add64 palign (sub64 (vaddr mod align) (pos mod align))) mod align) in
  pos <= pos1 /\ pos1 < pos + align /\ pos1 mod align = vaddr mod align.
Proof.
  cbv zeta. intros Hb Hp. destruct (N.ltb_spec 0 palign) as [Hpos|Hz].
  - cbv beta iota in *. set (a := palign) in *. set (c := pos mod a). set (r := vaddr mod a).
    assert (Hc : c < a) by (apply N.mod_lt; lia). assert (Hr : r < a) by (apply N.mod_lt; lia).
    pose proof (N.div_mod pos a ltac:(lia)) as Hd. fold c in Hd. set (q := pos / a) in *. clearbody c r q.
    assert (E : add64 a (sub64 r c) mod a = (a + r - c) mod a).
    { destruct (N.le_gt_cases c r) as [Hle|Hgt].
      - rewrite sub64_id by lia. rewrite add64_id by lia. f_equal. lia.
      - unfold sub64, add64, wrap64. rewrite (wrap_small 64 c) by lia. rewrite (wrap_small 64 (r + (2 ^ 64 - c))) by lia.
        unfold wrap. replace (a + (r + (2 ^ 64 - c))) with ((a + r - c) + 1 * 2 ^ 64) by lia.
        rewrite N.mod_add by lia. rewrite (N.mod_small (a + r - c)) by lia. reflexivity. }
    rewrite E.
    assert (Hm : (a + r - c) mod a < a) by (apply N.mod_lt; lia).
    rewrite add64_id by lia. split; [lia|]. split; [lia|]. clear E Hm.
    destruct (N.le_gt_cases c r) as [Hle|Hgt].
    + replace ((a + r - c) mod a) with (r - c).
      2:{ replace (a + r - c) with ((r - c) + 1 * a) by lia. rewrite N.mod_add by lia. symmetry. apply N.mod_small. lia. }
      replace (pos + (r - c)) with (r + q * a) by lia. rewrite N.mod_add by lia. apply N.mod_small. exact Hr.
    + rewrite (N.mod_small (a + r - c)) by lia.
      replace (pos + (a + r - c)) with (r + (q + 1) * a) by lia. rewrite N.mod_add by lia. apply N.mod_small. exact Hr.
  - assert (palign = 0) by lia. subst palign. cbv beta iota in *. rewrite !N.mod_1_r.
    rewrite add64_id by lia. repeat split; lia.
Qed.

Lemma firstnN_all' {A} (l : list A) n : lenN l <= n -> firstnN l n = l.
Proof. apply firstnN_all. Qed.

Lemma lenN_cons_nz {A} (x : A) t : (lenN (x :: t) =? 0) = false.
Proof. rewrite lenN_cons. apply N.eqb_neq. lia. Qed.

Lemma seg_sections_all g : lenN (g_sections g) < 2 ^ 16 ->
  seg_sections_num g = lenN (g_sections g) /\ firstnN (g_sections g) (seg_sections_num g) = g_sections g.
Proof.
  intros H. assert (E : seg_sections_num g = lenN (g_sections g)) by now apply wrap_small.
  split; [exact E|]. rewrite E. apply firstnN_all. lia.
Qed.

Definition seg_start_at (pos : N) (g : segment) : N :=
  add64 pos ((add64 (p_align g) (sub64 (p_vaddr g mod (if 0 <? p_align g then p_align g else 1))
                                       (pos mod (if 0 <? p_align g then p_align g else 1))))
             mod (if 0 <? p_align g then p_align g else 1)).

Definition seg_laid (g : segment) (ss fin : N) : segment :=
  seg_set (if p_memsz (seg_set g GFilesz (fin - ss)) <? fin - ss
           then seg_set (seg_set g GFilesz (fin - ss)) GMemsz (fin - ss) else seg_set g GFilesz (fin - ss)) GOffset ss.

Lemma seg_laid_fields g ss fin bound :
  bound <= 2 ^ xw (g_cls g) -> ss <= fin -> fin < bound ->
  p_offset (seg_laid g ss fin) = ss /\ p_filesz (seg_laid g ss fin) = fin - ss /\
  p_filesz (seg_laid g ss fin) <= p_memsz (seg_laid g ss fin) /\
  p_vaddr (seg_laid g ss fin) = p_vaddr g /\
  (g_sections (seg_laid g ss fin) = g_sections g /\ g_offset_set (seg_laid g ss fin) = true /\
   p_align (seg_laid g ss fin) = p_align g /\ p_type (seg_laid g ss fin) = p_type g /\ g_cls (seg_laid g ss fin) = g_cls g /\
   g_index (seg_laid g ss fin) = g_index g /\ p_flags (seg_laid g ss fin) = p_flags g /\ p_paddr (seg_laid g ss fin) = p_paddr g).
Proof.
  intros Hb Hs Hf. unfold seg_laid.
  assert (W1 : wrap (xw (g_cls g)) (fin - ss) = fin - ss) by (apply wrap_small; lia).
  assert (W2 : wrap (xw (g_cls g)) ss = ss) by (apply wrap_small; lia).
  destruct (N.ltb_spec (p_memsz (seg_set g GFilesz (fin - ss))) (fin - ss)) as [Hlt|Hge];
    cbn [p_offset p_vaddr p_filesz p_memsz seg_set g_cls g_sections g_offset_set p_align p_type g_index p_flags p_paddr] in *;
    rewrite ?W1, ?W2; repeat split; lia.
Qed.

Theorem layout_one_segment_auto h g secs gen pos bound ms :
  let idxs := g_sections g in
  let align := if 0 <? p_align g then p_align g else 1 in
  lenN idxs < 2 ^ 16 -> idxs <> [] ->
  g_offset_set g = false -> p_type g <> PT_PHDR ->
  NoDup idxs -> Forall2 (fun i s => nth_optN secs i = Some s) idxs ms ->
  Forall auto_member ms ->
  (forall i, In i idxs -> nth_optN gen i = Some false) ->
  bound <= 2 ^ 64 -> p_align g < 2 ^ 63 ->
  p_vaddr g + pos + align + mbudget ms < bound ->
  let ss := seg_start_at pos g in
  pos <= ss /\ ss < pos + align /\ ss mod align = p_vaddr g mod align /\
  exists gen',
    layout_one_segment h g secs gen pos =
      Ok (seg_laid g ss (snd (place_members (p_vaddr g) ss ss ms)),
          upd_list secs idxs (fst (place_members (p_vaddr g) ss ss ms)), gen',
          snd (place_members (p_vaddr g) ss ss ms), true).
Proof.
  cbv zeta. intros Hlen Hne Hos Hty Hnd HF Hauto Hgen Hb64 Hal Hbud.
  destruct (seg_start_congruent pos (p_vaddr g) (p_align g)) as (S1 & S2 & S3);
    [destruct (0 <? p_align g); lia|exact Hal|]. cbv zeta in S1, S2, S3. fold (seg_start_at pos g) in S1, S2, S3.
  do 3 (split; [assumption|]). clear S3.
  unfold layout_one_segment. destruct (seg_sections_all g Hlen) as [-> ->].
  destruct (g_sections g) as [|i0 t0] eqn:Eg; [contradiction|].
  replace ((p_type g =? PT_PHDR) && (lenN (i0 :: t0) =? 0)) with false by now rewrite lenN_cons_nz, andb_false_r.
  rewrite Hos. cbn [andb]. rewrite lenN_cons. destruct (N.ltb_spec 0 (1 + lenN t0)); [|lia].
  replace (seg_section_at g 0) with i0 by (unfold seg_section_at; now rewrite Eg).
  unfold gen_get at 1. rewrite (Hgen i0 (or_introl eq_refl)). cbn [bind negb]. fold (seg_start_at pos g).
  set (ss := seg_start_at pos g) in *. clearbody ss.
  destruct (write_segment_data_auto g ss bound (i0 :: t0) ms (mkW secs gen ss 0 0) Hnd HF Hauto Hgen Hb64)
    as (gen' & ->); [cbn; lia|reflexivity|cbn [ws_pos]; destruct (0 <? p_align g); lia|].
  cbn [bind ws_pos ws_secs ws_gen ws_mem ws_fsz]. exists gen'. reflexivity.
Qed.

Lemma mchain_frame g seg_start secs1 secs2 idxs lo hi :
  (forall i, In i idxs -> nth_optN secs2 i = nth_optN secs1 i) -> mchain g seg_start secs1 idxs lo hi -> mchain g seg_start secs2 idxs lo hi.
Proof.
  revert lo; induction idxs as [|i t IH]; intros lo Hf H; cbn [mchain] in *; [exact H|].
  destruct H as (s & H1 & H2 & H3 & H4 & H5 & H6). exists s. rewrite (Hf i (or_introl eq_refl)).
  repeat split; try assumption. apply IH; [|exact H6]. intros j Hj. apply Hf. now right.
Qed.

Lemma mchain_vaddr g g' ss secs' idxs : p_vaddr g' = p_vaddr g ->
  forall lo hi, mchain g ss secs' idxs lo hi -> mchain g' ss secs' idxs lo hi.
Proof.
  intros Hv. induction idxs as [|i t IH]; intros lo hi H; cbn [mchain] in *; [exact H|].
  destruct H as (s & H1 & H2 & H3 & H4 & H5 & H6). exists s. rewrite Hv. repeat split; try assumption. now apply IH.
Qed.

Lemma mchain_bounds g ss secs' idxs : forall lo hi, mchain g ss secs' idxs lo hi -> lo <= hi.
Proof.
  induction idxs as [|i t IH]; intros lo hi H; cbn [mchain] in H; [exact H|].
  destruct H as (s & _ & H2 & _ & _ & _ & H6). apply IH in H6. lia.
Qed.

Theorem mchain_member g ss secs' idxs : forall lo hi i, mchain g ss secs' idxs lo hi -> In i idxs ->
  exists s, nth_optN secs' i = Some s /\ lo <= sh_offset s /\ sh_offset s + sh_size s <= hi /\
            sh_offset s mod eff_align s = 0 /\ sh_addr s - p_vaddr g = sh_offset s - ss /\ p_vaddr g <= sh_addr s.
Proof.
  induction idxs as [|j t IH]; intros lo hi i H Hin; [contradiction|]. cbn [mchain] in H.
  destruct H as (s & H1 & H2 & H3 & H4 & H5 & H6). destruct Hin as [->|Hin].
  - exists s. pose proof (mchain_bounds _ _ _ _ _ _ H6). repeat split; try assumption; clear H3; lia.
  - destruct (IH _ _ i H6 Hin) as (s' & A1 & A2 & A3 & A4 & A5 & A6). exists s'. repeat split; try assumption; clear H3 A4; lia.
Qed.

Lemma mchain_mend_le g ss secs' idxs : forall lo hi, mchain g ss secs' idxs lo hi -> mend secs' idxs lo <= hi /\ lo <= mend secs' idxs lo.
Proof.
  induction idxs as [|i t IH]; intros lo hi H; cbn [mchain mend] in *; [lia|].
  destruct H as (s & H1 & H2 & _ & _ & _ & H6). rewrite H1. destruct (IH _ _ H6). lia.
Qed.

(* the second pass over a segment that has been laid out (C06): every member is met where it already stands *)
Lemma write_seg_step_placed g seg_start w index sec :
  nth_optN (ws_secs w) index = Some sec -> placed_member sec -> nth_optN (ws_gen w) index = Some false ->
  seg_start <= ws_pos w -> ws_pos w <= sh_offset sec -> p_vaddr g <= sh_addr sec ->
  sh_addr sec - p_vaddr g = sh_offset sec - seg_start ->
  sh_addr sec < 2 ^ 64 -> sh_offset sec + sh_size sec < 2 ^ 64 ->
  ws_mem w + sh_offset sec + sh_size sec < 2 ^ 64 -> ws_fsz w + sh_offset sec + sh_size sec < 2 ^ 64 ->
  write_seg_step g seg_start w index =
    Ok (Some (mkW (ws_secs w) (gen_set (ws_gen w) index) (sh_offset sec + sh_size sec)
                  (ws_mem w + (sh_size sec + (sh_offset sec - ws_pos w))) (ws_fsz w + (sh_size sec + (sh_offset sec - ws_pos w))))).
Proof.
  intros Hn (Hi & Ht1 & Ht2 & Ha & Hz & Hal & Htls & Ho) Hg Hss Hle Hva Hd Ha64 Hb1 Hb2 Hb3.
  (* lia is given only the hypotheses it needs: the subtractions of the whole context make it slow *)
  assert (E1 : sh_addr sec - p_vaddr g - (ws_pos w - seg_start) = sh_offset sec - ws_pos w) by (clear - Hss Hle Hva Hd; lia).
  assert (E2 : ws_pos w + (sh_offset sec - ws_pos w) = sh_offset sec) by (clear - Hle; lia).
  unfold write_seg_step. rewrite Hn.
  apply N.eqb_neq in Ht1, Ht2, Hz, Hi, Htls. apply N.eqb_eq in Hal.
  rewrite Ht1. unfold gen_get. rewrite Hg. cbn [bind]. rewrite Ha, Ht2, Hz. cbn [negb andb].
  rewrite (sub64_id (sh_addr sec) (p_vaddr g)) by (clear - Hva Ha64; lia).
  rewrite (sub64_id (ws_pos w) seg_start) by (clear - Hss Hle Hb1; lia).
  destruct (N.ltb_spec (sh_addr sec - p_vaddr g) (ws_pos w - seg_start)) as [H|H]; [clear - H Hss Hle Hva Hd; lia|].
  rewrite (sub64_id (sh_addr sec - p_vaddr g) (ws_pos w - seg_start)) by (clear - H Ha64; lia). cbn [bind].
  rewrite Hal, Htls. cbn [andb negb].
  rewrite E1, (add64_id (ws_pos w)), E2 by (clear - Hle Hb1; lia).
  rewrite Hi, (with_offset_same sec Ho), Ht2, (updN_same _ _ _ Hn). cbn [negb].
  rewrite !(add64_id (sh_size sec)) by (clear - Hle Hb1; lia). rewrite !add64_id by (clear - Hle Hb1 Hb2 Hb3; lia). reflexivity.
Qed.

Theorem write_segment_data_placed g seg_start : forall idxs w,
  NoDup idxs ->
  (forall i, In i idxs -> nth_optN (ws_gen w) i = Some false) ->
  (forall i, In i idxs -> exists s, nth_optN (ws_secs w) i = Some s /\ placed_member s) ->
  mchain g seg_start (ws_secs w) idxs (ws_pos w) (mend (ws_secs w) idxs (ws_pos w)) ->
  seg_start <= ws_pos w -> ws_mem w = ws_fsz w -> ws_pos w = seg_start + ws_fsz w ->
  p_vaddr g + mend (ws_secs w) idxs (ws_pos w) < 2 ^ 63 ->
  exists gen',
    write_segment_data g seg_start idxs w =
      Ok (mkW (ws_secs w) gen' (mend (ws_secs w) idxs (ws_pos w))
              (mend (ws_secs w) idxs (ws_pos w) - seg_start) (mend (ws_secs w) idxs (ws_pos w) - seg_start), true).
Proof.
  induction idxs as [|i t IH]; intros w Hnd Hgen Hpl Hch Hss Hmf Hpf Hb.
  - cbn [write_segment_data mend]. exists (ws_gen w). destruct w; cbn in *. subst. repeat f_equal; lia.
  - inversion Hnd as [|? ? Hni Hndt]; subst. cbn [mchain mend] in Hch, Hb.
    destruct Hch as (s & Hs & C1 & _ & C3 & C4 & C5). rewrite Hs in Hb, C5.
    destruct (Hpl i (or_introl eq_refl)) as (s' & Hs' & Hp). rewrite Hs in Hs'. injection Hs' as <-.
    pose proof (mchain_bounds _ _ _ _ _ _ C5) as Hend.
    cbn [write_segment_data mend]. rewrite Hs.
    rewrite (write_seg_step_placed g seg_start w i s Hs Hp (Hgen i (or_introl eq_refl))) by lia.
    cbn [bind].
    match goal with |- context [write_segment_data g seg_start t ?w1] =>
      destruct (IH w1 Hndt) as (gen' & ->); cbn [ws_secs ws_gen ws_pos ws_mem ws_fsz]; try assumption; try lia end.
    + intros j Hj. unfold gen_set. rewrite nth_optN_updN_other; [apply Hgen; now right|]. intro; subst; contradiction.
    + intros j Hj. apply Hpl. now right.
    + exists gen'. reflexivity.
Qed.

Lemma seg_set_noop g :
  g_offset_set g = true -> p_filesz g < 2 ^ xw (g_cls g) -> p_offset g < 2 ^ xw (g_cls g) ->
  seg_set (seg_set g GFilesz (p_filesz g)) GOffset (p_offset g) = g.
Proof.
  intros H1 H2 H3. destruct g; cbn in *. subst. unfold seg_set; cbn. rewrite !wrap_small by assumption. reflexivity.
Qed.

(* C06 for such a segment: laying it out again — fresh "generated" flags, same starting position, any
   section list that agrees with the first pass's result on the members — changes nothing.  [0 < pos] keeps the
   segment off file offset 0, which the second pass would treat as "starts with the file"; [bound <= 2^63] keeps
   the differences of addresses and offsets that the second pass forms below 2^64 *)
Theorem layout_one_segment_again_frame h g secs gen pos bound ms g' secs' gen' pos' secs2 :
  let idxs := g_sections g in
  let align := if 0 <? p_align g then p_align g else 1 in
  lenN idxs < 2 ^ 16 -> idxs <> [] ->
  g_offset_set g = false -> p_type g <> PT_PHDR ->
  NoDup idxs -> Forall2 (fun i s => nth_optN secs i = Some s) idxs ms ->
  Forall auto_member ms -> Forall (fun s => bound <= 2 ^ xw (s_cls s)) ms -> Forall (fun s => sh_size s <> 0) ms ->
  (forall i, In i idxs -> nth_optN gen i = Some false) ->
  bound <= 2 ^ 63 -> bound <= 2 ^ xw (g_cls g) -> p_align g < 2 ^ 63 ->
  p_vaddr g + pos + align + mbudget ms < bound -> 0 < pos ->
  layout_one_segment h g secs gen pos = Ok (g', secs', gen', pos', true) ->
  (forall i, In i idxs -> nth_optN secs2 i = nth_optN secs' i) ->
  exists gen'', layout_one_segment h g' secs2 gen pos = Ok (g', secs2, gen'', pos', true).
Proof.
  cbv zeta. intros Hlen Hne Hos Hty Hnd HF Hauto Hcls Hnz Hgen Hb63 Hbg Hal Hbud Hpos E Hfr.
  pose proof (layout_one_segment_auto h g secs gen pos bound ms Hlen Hne Hos Hty Hnd HF Hauto Hgen ltac:(lia) Hal Hbud) as E1.
  cbv zeta in E1. destruct E1 as (S1 & S2 & _ & gen1 & E1). rewrite E in E1. injection E1 as -> -> _ ->.
  set (ss := seg_start_at pos g) in *. set (R := place_members (p_vaddr g) ss ss ms) in *.
  assert (Hal1 : (if 0 <? p_align g then p_align g else 1) <= p_align g + 1) by (destruct (0 <? p_align g); lia).
  destruct (place_members_bounds (p_vaddr g) ss ms ss) as [B1 B2]. fold R in B1, B2.
  destruct (seg_laid_fields g ss (snd R) bound Hbg B1 ltac:(lia)) as (O1 & F1 & M1 & V1 & G1 & G2 & G3 & _ & G5 & _).
  assert (HF2 : Forall2 (fun i s => nth_optN secs2 i = Some s) (g_sections g) (fst R)).
  { pose proof (upd_list_nth _ ms (fst R) secs Hnd HF (lenN_place_members _ _ _ _)) as HU. fold R in HU.
    exact (Forall2_nth_frame _ _ _ _ Hfr HU). }
  destruct (place_members_chain g ss bound secs2 ms (g_sections g) ss HF2 Hcls (N.le_refl _) ltac:(lia)) as [Ch Me]. fold R in Ch, Me.
  pose proof (place_members_placed (p_vaddr g) ss bound ms ss Hauto Hnz Hcls ltac:(lia)) as Pl. fold R in Pl.
  set (g' := seg_laid g ss (snd R)) in *. clearbody g' R.
  unfold layout_one_segment. destruct (seg_sections_all g' ltac:(rewrite G1; exact Hlen)) as [-> ->]. rewrite G1.
  destruct (g_sections g) as [|i0 t0] eqn:Eg; [contradiction|].
  replace ((p_type g' =? PT_PHDR) && (lenN (i0 :: t0) =? 0)) with false by now rewrite lenN_cons_nz, andb_false_r.
  rewrite G2, O1. destruct (N.eqb_spec ss 0); [lia|]. cbn [andb].
  rewrite lenN_cons. destruct (N.ltb_spec 0 (1 + lenN t0)); [|lia].
  replace (seg_section_at g' 0) with i0 by (unfold seg_section_at; now rewrite G1).
  unfold gen_get at 1. rewrite (Hgen i0 (or_introl eq_refl)). cbn [bind negb].
  rewrite G3, V1. fold (seg_start_at pos g). fold ss. cbn [bind].
  destruct (write_segment_data_placed g' ss (i0 :: t0) (mkW secs2 gen ss 0 0) Hnd) as (gen'' & ->); cbn [ws_secs ws_pos ws_mem ws_fsz ws_gen].
  { exact Hgen. }
  { intros i Hi. clear - HF2 Pl Hi. revert Pl. induction HF2 as [|j s t st Hj _ IHF]; intros Pl; [contradiction|].
    inversion Pl; subst. destruct Hi as [<-|Hi]; eauto. }
  { rewrite Me. exact (mchain_vaddr g g' ss secs2 _ V1 _ _ Ch). }
  { lia. } { reflexivity. } { lia. } { rewrite Me, V1. lia. }
  cbn [bind ws_pos ws_secs ws_fsz ws_mem]. rewrite Me, <- F1.
  destruct (N.ltb_spec (p_memsz (seg_set g' GFilesz (p_filesz g'))) (p_filesz g')) as [Hlt|Hge].
  { cbn [p_memsz seg_set] in Hlt. lia. }
  replace (seg_set (seg_set g' GFilesz (p_filesz g')) GOffset ss) with g'.
  { rewrite F1. replace (ss + (snd R - ss)) with (snd R) by lia. exists gen''. reflexivity. }
  symmetry. rewrite <- O1. apply seg_set_noop; [exact G2|rewrite G5, F1; lia|rewrite G5, O1; lia].
Qed.

Theorem layout_one_segment_again h g secs gen pos bound ms g' secs' gen' pos' :
  let idxs := g_sections g in
  let align := if 0 <? p_align g then p_align g else 1 in
  lenN idxs < 2 ^ 16 -> idxs <> [] ->
  g_offset_set g = false -> p_type g <> PT_PHDR ->
  NoDup idxs -> Forall2 (fun i s => nth_optN secs i = Some s) idxs ms ->
  Forall auto_member ms -> Forall (fun s => bound <= 2 ^ xw (s_cls s)) ms -> Forall (fun s => sh_size s <> 0) ms ->
  (forall i, In i idxs -> nth_optN gen i = Some false) ->
  bound <= 2 ^ 63 -> bound <= 2 ^ xw (g_cls g) -> p_align g < 2 ^ 63 ->
  p_vaddr g + pos + align + mbudget ms < bound -> 0 < pos ->
  layout_one_segment h g secs gen pos = Ok (g', secs', gen', pos', true) ->
  exists gen'', layout_one_segment h g' secs' gen pos = Ok (g', secs', gen'', pos', true).
Proof.
  intros idxs align H1 H2 H3 H4 H5 H6 H7 H8 H9 H10 H11 H12 H13 H14 H15 E.
  exact (layout_one_segment_again_frame h g secs gen pos bound ms g' secs' gen' pos' secs'
           H1 H2 H3 H4 H5 H6 H7 H8 H9 H10 H11 H12 H13 H14 H15 E (fun _ _ => eq_refl)).
Qed.
