(* Stream_proofs.v — output-stream algebra for C16: a sink with a byte
   capacity reports failure exactly when the complete output does not fit. *)
From ElfioV Require Import Bytes Stream.
Local Open Scope N_scope.

Lemma to_signed64_small v : v < 2 ^ 63 -> to_signed64 v = Z.of_N v.
Proof. intros H. unfold to_signed64. rewrite N.mod_small by lia. destruct (N.ltb_spec v (2 ^ 63)); lia. Qed.

(* the capped stream [sc] has so far behaved exactly like the unlimited one [su] *)
Definition in_step (k : N) (sc su : ostream) : Prop :=
  os_cap sc = Some k /\ os_cap su = None /\
  os_bad sc = false /\ os_bad su = false /\ os_abort sc = false /\ os_abort su = false /\
  os_pieces sc = os_pieces su /\ os_len sc = os_len su /\ os_pos sc = os_pos su /\ os_len su <= k.

Definition overflowed (k : N) (sc su : ostream) : Prop :=
  os_bad sc = true /\ os_cap su = None /\ os_bad su = false /\ k < os_len su.

Definition no_huge_pad (su : ostream) (off : N) : Prop := off < os_len su + 2147483648.

Lemma in_step_mk k pc len pos : len <= k ->
  in_step k (mkOstream pc len false pos (Some k) false) (mkOstream pc len false pos None false).
Proof. intros H. repeat split. exact H. Qed.

Lemma in_step_inv k sc su : in_step k sc su -> exists pc len pos,
  sc = mkOstream pc len false pos (Some k) false /\ su = mkOstream pc len false pos None false /\ len <= k.
Proof.
  destruct sc, su. unfold in_step. cbn. intros H. decompose [and] H. subst. do 3 eexists. repeat split. assumption.
Qed.

Lemma in_step_bytes k sc su : in_step k sc su -> os_bytes sc = os_bytes su.
Proof. intros H. now destruct (in_step_inv _ _ _ H) as (pc & len & pos & -> & -> & _). Qed.

Lemma in_step_good k sc su : in_step k sc su -> os_bad sc = false /\ os_abort sc = false.
Proof. intros H. now destruct (in_step_inv _ _ _ H) as (pc & len & pos & -> & _). Qed.

Lemma in_step_new k : in_step k (new_ostream (Some k)) (new_ostream None).
Proof. apply in_step_mk, N.le_0_l. Qed.

Lemma exec_plan_app os p q : exec_plan (exec_plan os p) q = exec_plan os (p ++ q).
Proof. unfold exec_plan. now rewrite fold_left_app. Qed.

Definition room (s : ostream) (len : N) : Prop := match os_cap s with Some k => len <= k | None => True end.

Lemma write_empty s bs : lenN bs = 0 -> write s bs = s.
Proof. intros E. unfold write. rewrite E. now destruct (os_bad s || os_abort s). Qed.

Lemma write_room s bs : os_bad s = false -> os_abort s = false -> lenN bs <> 0 ->
  room s (N.max (os_len s) (os_pos s + lenN bs)) ->
  write s bs = mkOstream (put_piece (os_pos s) bs (os_pieces s)) (N.max (os_len s) (os_pos s + lenN bs)) false
                         (os_pos s + lenN bs) (os_cap s) false.
Proof.
  intros Hb Ha Hn Hr. unfold write, room in *. rewrite Hb, Ha. cbn [orb]. apply N.eqb_neq in Hn. rewrite Hn.
  destruct (os_cap s) as [k|]; [|reflexivity]. apply N.leb_le in Hr. now rewrite Hr.
Qed.

Lemma write_full s bs k : os_bad s = false -> os_abort s = false -> lenN bs <> 0 -> os_cap s = Some k ->
  k < N.max (os_len s) (os_pos s + lenN bs) -> os_bad (write s bs) = true.
Proof.
  intros Hb Ha Hn Hc Hk. unfold write. rewrite Hb, Ha, Hc. cbn [orb]. apply N.eqb_neq in Hn. rewrite Hn.
  apply N.leb_gt in Hk. now rewrite Hk.
Qed.

Lemma adjust_room s off : os_bad s = false -> os_abort s = false -> no_huge_pad s off -> room s (N.max (os_len s) off) ->
  adjust_stream_size s off = mkOstream (os_pieces s) (N.max (os_len s) off) false off (os_cap s) false.
Proof.
  intros Hb Ha Hp Hr. unfold no_huge_pad, room in *. unfold adjust_stream_size. rewrite Ha.
  unfold seekp_end, tellp. rewrite Hb. cbn [os_bad os_len os_pos].
  destruct (Z.ltb_spec (Z.of_N (os_len s)) (Z.of_N off)) as [Hlt|Hge]; cbn [andb].
  - replace (2147483648 <=? Z.to_N (Z.of_N off - Z.of_N (os_len s))) with false by (symmetry; apply N.leb_gt; lia).
    unfold pad_to, seekp. cbn [os_bad os_abort os_cap os_pieces os_len orb]. rewrite Ha. rewrite N.max_r in * by lia.
    destruct (os_cap s) as [k|]; [|reflexivity]. apply N.leb_le in Hr. now rewrite Hr.
  - unfold seekp. cbn [os_bad os_pieces os_len os_cap os_abort]. rewrite Ha, N.max_l by lia. reflexivity.
Qed.

Lemma adjust_full s off k : os_bad s = false -> os_abort s = false -> no_huge_pad s off -> os_cap s = Some k ->
  os_len s <= k -> k < off -> os_bad (adjust_stream_size s off) = true.
Proof.
  intros Hb Ha Hp Hc Hl Hk. unfold no_huge_pad in Hp. unfold adjust_stream_size. rewrite Ha.
  unfold seekp_end, tellp. rewrite Hb. cbn [os_bad os_len os_pos].
  destruct (Z.ltb_spec (Z.of_N (os_len s)) (Z.of_N off)) as [Hlt|Hge]; [|lia]. cbn [andb].
  replace (2147483648 <=? Z.to_N (Z.of_N off - Z.of_N (os_len s))) with false by (symmetry; apply N.leb_gt; lia).
  unfold pad_to, seekp. cbn [os_bad os_abort os_cap orb]. rewrite Ha, Hc. apply N.leb_gt in Hk. now rewrite Hk.
Qed.

Lemma adjust_huge s off : os_bad s = false -> os_abort s = false -> os_len s + 2147483648 <= off ->
  adjust_stream_size s off = mkOstream (os_pieces s) (os_len s) false (os_pos s) (os_cap s) true.
Proof.
  intros Hb Ha Hp. unfold adjust_stream_size, seekp_end, tellp. rewrite Ha, Hb. cbn [os_bad os_len os_pos].
  destruct (Z.ltb_spec (Z.of_N (os_len s)) (Z.of_N off)); [|lia].
  destruct (N.leb_spec 2147483648 (Z.to_N (Z.of_N off - Z.of_N (os_len s)))); [reflexivity|lia].
Qed.

Lemma bad_sticky_write s bs : os_bad s = true -> os_bad (write s bs) = true.
Proof. intros H. unfold write. now rewrite H. Qed.

Lemma bad_sticky_adjust s off : os_bad s = true -> os_bad (adjust_stream_size s off) = true.
Proof.
  intros H. assert (E : seekp_end s = s) by (unfold seekp_end; now rewrite H).
  unfold adjust_stream_size. destruct (os_abort s); [assumption|]. rewrite E.
  destruct (_ && _); [exact H|]. unfold pad_to, seekp. rewrite H. cbn [orb]. destruct (_ <? _)%Z; now rewrite H.
Qed.

Lemma bad_sticky_plan p : forall s, os_bad s = true -> os_bad (exec_plan s p) = true.
Proof.
  induction p as [|w t IH]; intros s H; cbn [exec_plan fold_left]; [exact H|].
  apply IH. unfold exec_write. now apply bad_sticky_write, bad_sticky_adjust.
Qed.

(* an aborted stream (std::length_error thrown) ignores everything that follows *)
Lemma abort_sticky_plan p : forall s, os_abort s = true -> exec_plan s p = s.
Proof.
  induction p as [|w t IH]; intros s H; cbn [exec_plan fold_left]; [reflexivity|].
  assert (E : exec_write s w = s).
  { unfold exec_write, adjust_stream_size. rewrite H. unfold write. rewrite H, orb_true_r. reflexivity. }
  rewrite E. now apply IH.
Qed.

Definition unlimited (s : ostream) : Prop := os_cap s = None /\ os_bad s = false.

Lemma write_unlimited s bs : unlimited s -> unlimited (write s bs) /\ os_len s <= os_len (write s bs).
Proof.
  intros [Hc Hb]. destruct (N.eq_dec (lenN bs) 0) as [E|E]; [rewrite write_empty by exact E; repeat split; auto; lia|].
  destruct (os_abort s) eqn:Ha; [unfold write; rewrite Ha, orb_true_r; repeat split; auto; lia|].
  rewrite write_room by (try assumption; unfold room; now rewrite Hc). rewrite Hc. repeat split. cbn [os_len]. lia.
Qed.

Lemma adjust_unlimited s off : unlimited s -> unlimited (adjust_stream_size s off) /\ os_len s <= os_len (adjust_stream_size s off).
Proof.
  intros [Hc Hb]. destruct (os_abort s) eqn:Ha; [unfold adjust_stream_size; rewrite Ha; repeat split; auto; lia|].
  destruct (N.lt_ge_cases off (os_len s + 2147483648)) as [Hp|Hp].
  - rewrite adjust_room by (try assumption; unfold room; now rewrite Hc). rewrite Hc. repeat split. cbn [os_len]. lia.
  - rewrite adjust_huge by assumption. repeat split; [exact Hc|apply N.le_refl].
Qed.

Definition tracks (k : N) (sc su : ostream) : Prop :=
  (os_len su <= k -> in_step k sc su) /\ (k < os_len su -> overflowed k sc su).

Lemma in_step_tracks k sc su : in_step k sc su -> tracks k sc su.
Proof.
  intros H. split; [intros _; exact H|]. destruct (in_step_inv _ _ _ H) as (pc & len & pos & _ & -> & Hle). cbn [os_len]. lia.
Qed.

Lemma write_sim k sc su bs : in_step k sc su -> tracks k (write sc bs) (write su bs).
Proof.
  intros HS. destruct (N.eq_dec (lenN bs) 0) as [E|E]; [rewrite !write_empty by exact E; now apply in_step_tracks|].
  destruct (in_step_inv _ _ _ HS) as (pc & len & pos & -> & -> & Hle).
  unfold tracks. rewrite (write_room (mkOstream pc len false pos None false)) by first [reflexivity|exact E|exact I].
  cbn [os_len os_pos os_pieces os_cap]. split; intros Hk.
  - rewrite write_room by first [reflexivity|exact E|exact Hk]. now apply in_step_mk.
  - split; [apply (write_full _ bs k); first [reflexivity|exact E|exact Hk]|]. repeat split. exact Hk.
Qed.

Lemma adjust_sim k sc su off : in_step k sc su -> no_huge_pad su off ->
  tracks k (adjust_stream_size sc off) (adjust_stream_size su off).
Proof.
  intros HS Hpad. destruct (in_step_inv _ _ _ HS) as (pc & len & pos & -> & -> & Hle).
  unfold tracks. rewrite (adjust_room (mkOstream pc len false pos None false)) by first [reflexivity|exact Hpad|exact I].
  cbn [os_len os_pieces os_cap]. split; intros Hk.
  - rewrite adjust_room by first [reflexivity|exact Hpad|exact Hk]. now apply in_step_mk.
  - split; [apply (adjust_full _ off k); first [reflexivity|exact Hpad|exact Hle|lia]|]. repeat split. exact Hk.
Qed.

(* an operation that keeps streams in step while the output fits keeps them on track: once overflowed, the capped
   stream stays failed and the unlimited one does not shrink *)
Lemma tracks_step k (op : ostream -> ostream) sc su :
  (in_step k sc su -> tracks k (op sc) (op su)) -> (os_bad sc = true -> os_bad (op sc) = true) ->
  (unlimited su -> unlimited (op su) /\ os_len su <= os_len (op su)) ->
  tracks k sc su -> tracks k (op sc) (op su).
Proof.
  intros H1 Hs Hu [T1 T2]. destruct (N.le_gt_cases (os_len su) k) as [H|H]; [exact (H1 (T1 H))|].
  destruct (T2 H) as (Hb & Hc & Hbu & Hk). destruct (Hu (conj Hc Hbu)) as ((Hc' & Hb') & Hl).
  split; [lia|]. intros _. repeat split; [now apply Hs|assumption..|lia].
Qed.

(* every padding request of the plan stays below 2 GiB (otherwise std::string throws) *)
Fixpoint plan_no_huge (su : ostream) (p : list (N * bytes)) : Prop :=
  match p with
  | [] => True
  | w :: t => no_huge_pad su (fst w) /\ plan_no_huge (exec_write su w) t
  end.

Lemma exec_plan_tracks k p : forall sc su, tracks k sc su -> plan_no_huge su p -> tracks k (exec_plan sc p) (exec_plan su p).
Proof.
  induction p as [|w t IH]; intros sc su T HP; cbn [exec_plan fold_left]; [exact T|]. destruct HP as [Hpad HP].
  apply IH; [|exact HP]. unfold exec_write.
  apply (tracks_step k (fun s => write s (snd w))); [apply write_sim|apply bad_sticky_write|apply write_unlimited|].
  apply (tracks_step k (fun s => adjust_stream_size s (fst w)));
    [intros HS; now apply adjust_sim|apply bad_sticky_adjust|apply adjust_unlimited|exact T].
Qed.
