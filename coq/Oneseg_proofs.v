(* Oneseg_proofs.v — the layout half of save() for an object with ONE segment whose members are
   allocated data sections the writer addresses itself, plus any number of sections outside it:
   ELF header, program header table, the segment (start congruent to its address, members chained
   inside), the free sections chained behind it, the section header table after everything. *)
From ElfioV Require Import Bytes Mem Stream SectionData SectionData_proofs Strings Elfio Table Loader Layout Layout_proofs Segment_proofs.
From Coq Require Import ZifyBool ZifyN ZifyNat.
Local Open Scope N_scope.

(* calc_segment_alignment does nothing when the segment's alignment already dominates its members'
   (add_section_index raises it as members are added) *)
Lemma calc_seg_align_noop secs g :
  (forall i, In i (firstnN (g_sections g) (seg_sections_num g)) -> exists s, nth_optN secs i = Some s /\ sh_addralign s <= p_align g) ->
  calc_seg_align secs g = Ok g.
Proof.
  unfold calc_seg_align. generalize (firstnN (g_sections g) (seg_sections_num g)). intro l.
  induction l as [|i t IH]; intro H; [reflexivity|].
  cbn [fold_left bind]. destruct (H i (or_introl eq_refl)) as (s & -> & Ha).
  destruct (N.ltb_spec (p_align g) (sh_addralign s)); [lia|]. apply IH. intros j Hj. apply H. now right.
Qed.

Lemma ordered_single g : get_ordered_segments [g] = Ok [0].
Proof. reflexivity. Qed.

Definition is_member (idxs : list N) (i : N) : bool := existsb (fun x => x =? i) idxs.

Lemma sws_single g i : lenN (g_sections g) < 2 ^ 16 ->
  sec_without_segment [g] i = negb (is_member (g_sections g) i).
Proof.
  intros H. unfold sec_without_segment, is_member. cbn [existsb].
  now rewrite orb_false_r, (proj2 (seg_sections_all g H)).
Qed.

Lemma is_member_In idxs i : is_member idxs i = true <-> In i idxs.
Proof.
  unfold is_member. rewrite existsb_exists. split.
  - intros (x & Hx & E). apply N.eqb_eq in E. now subst.
  - intros H. exists i. split; [exact H|apply N.eqb_refl].
Qed.

(* the sections of [l] (standing at positions i, i+1, ...) that belong to no segment *)
Fixpoint free_list (segs : list segment) (i : N) (l : list section) : list section :=
  match l with
  | [] => []
  | s :: t => if sec_without_segment segs i then s :: free_list segs (i + 1) t else free_list segs (i + 1) t
  end.

Lemma lfs_local_member g secs pos k : lenN (g_sections g) < 2 ^ 16 -> In k (g_sections g) ->
  nth_optN (fst (lfs_local (sec_without_segment [g]) 0 secs pos)) k = nth_optN secs k.
Proof.
  intros Hlen Hk. apply lfs_local_other. rewrite N.add_0_l, sws_single by exact Hlen.
  apply is_member_In in Hk. now rewrite Hk.
Qed.

Lemma free_list_pick segs : forall l i, free_list segs i l = pick (sec_without_segment segs) i l.
Proof. induction l as [|s t IH]; intro i; cbn [free_list pick]; [reflexivity|]. now rewrite IH. Qed.


Definition hdr_prep1 (h : ehdr) (nsec : N) : ehdr :=
  hdr_set (hdr_set (hdr_set (hdr_set h HPhnum 1) HPhoff (e_ehsize h)) HShnum nsec) HShoff 0.

Lemma hdr_prep1_idem h nsec p : hdr_prep1 (hdr_set (hdr_prep1 h nsec) HShoff p) nsec = hdr_prep1 h nsec.
Proof. destruct h; reflexivity. Qed.

Lemma hdr_prep1_fields h n :
  e_ehsize (hdr_prep1 h n) = e_ehsize h /\ e_phentsize (hdr_prep1 h n) = e_phentsize h /\ e_phnum (hdr_prep1 h n) = 1.
Proof. destruct h; repeat split. Qed.

(* the layout step of an object with exactly one segment, whose alignment already dominates its members':
   header preparation, the segment pass from behind the program header table, the free sections, the table offset *)
Lemma layout_single el h0 g :
  el_hdr el = Some h0 -> el_segs el = [g] -> lenN (el_secs el) < 2 ^ 16 -> calc_seg_align (el_secs el) g = Ok g ->
  e_ehsize h0 + e_phentsize h0 < 2 ^ 64 ->
  layout el =
    (r <- layout_one_segment (hdr_prep1 h0 (lenN (el_secs el))) g (el_secs el) (repeatN false (lenN (el_secs el)))
                             (e_ehsize h0 + e_phentsize h0) ;;
     let '(g1, secs1, _, pos1, ok) := r in
     let f := lfs_local (sec_without_segment [g1]) 0 secs1 pos1 in
     let pos3 := add64 (snd f) (16 - snd f mod 16) in
     Ok (if ok then (mkElfio (Some (hdr_set (hdr_prep1 h0 (lenN (el_secs el))) HShoff pos3)) (fst f) [g1]
                             (el_xlat el) pos3 (el_compr el) (el_stream el), true)
         else (mkElfio (Some (hdr_prep1 h0 (lenN (el_secs el)))) secs1 [g1] (el_xlat el) pos1 (el_compr el) (el_stream el), false))).
Proof.
  intros Hh Hs Hn Hc Hp. unfold layout. rewrite Hh, Hs. cbn [lenN]. change (wrap16 (N.succ 0)) with 1.
  cbn [N.ltb N.compare Pos.compare Pos.compare_cont map_res bind]. rewrite Hc. cbn [bind].
  rewrite (wrap_small 16 (lenN (el_secs el)) Hn : wrap16 _ = _), ordered_single. cbn [bind layout_segments nth_optN N.eqb].
  change (hdr_set (hdr_set (hdr_set (hdr_set h0 HPhnum 1) HPhoff (e_ehsize (hdr_set h0 HPhnum 1))) HShnum (lenN (el_secs el))) HShoff 0)
    with (hdr_prep1 h0 (lenN (el_secs el))).
  destruct (hdr_prep1_fields h0 (lenN (el_secs el))) as (-> & -> & ->).
  rewrite N.mul_1_r. unfold wrap64. rewrite wrap_small, add64_id by lia.
  destruct (layout_one_segment _ g _ _ _) as [[[[[g1 secs1] gen1] pos1] [|]]|f]; cbn [bind updN N.eqb layout_segments]; [|reflexivity..].
  pose proof (lfs_unfold [g1] secs1 [] pos1) as E. cbn [app lenN] in E. rewrite E. reflexivity.
Qed.

(* an object with one segment g whose members ms the writer addresses itself, everything fitting below bound *)
Set Implicit Arguments.
Record oneseg (el : elfio) (h0 : ehdr) (g : segment) (bound : N) (ms : list section) : Prop := {
  og_hdr : el_hdr el = Some h0;
  og_segs : el_segs el = [g];
  og_nsec : lenN (el_secs el) < 2 ^ 16;
  og_nmem : lenN (g_sections g) < 2 ^ 16;
  og_some : g_sections g <> [];
  og_auto_offset : g_offset_set g = false;
  og_type : p_type g <> PT_PHDR;
  og_nodup : NoDup (g_sections g);
  og_members : Forall2 (fun i s => nth_optN (el_secs el) i = Some s) (g_sections g) ms;
  og_auto : Forall auto_member ms;
  og_dominates : Forall (fun s => sh_addralign s <= p_align g) ms;
  og_bound : bound <= 2 ^ 64;
  og_cls : Forall (fun s => bound <= 2 ^ xw (s_cls s)) (el_secs el);
  og_gcls : bound <= 2 ^ xw (g_cls g);
  og_align : p_align g < 2 ^ 63;
  (* the file has room for: both headers and the padding up to the segment's congruent start, the members and
     the free sections each with their alignment padding, the 16-byte alignment of the section header table *)
  og_room : p_vaddr g + (e_ehsize h0 + e_phentsize h0) + (if 0 <? p_align g then p_align g else 1) +
            mbudget ms + budget (el_secs el) + 16 < bound
}.
Unset Implicit Arguments.

Lemma oneseg_member el h0 g bound ms : oneseg el h0 g bound ms ->
  forall i, In i (g_sections g) -> exists s, In s ms /\ nth_optN (el_secs el) i = Some s.
Proof. intros O i Hi. destruct (Forall2_both_In _ _ _ _ i (og_members O) (og_members O) Hi) as (s & Hs & P & _). eauto. Qed.

Theorem layout_oneseg el h0 g bound ms :
  let idxs := g_sections g in
  let align := if 0 <? p_align g then p_align g else 1 in
  let secs := el_secs el in
  let pos0 := e_ehsize h0 + e_phentsize h0 in
  oneseg el h0 g bound ms ->
  exists el' g' secs' seg_start pos1 pos2,
    layout el = Ok (el', true) /\
    el_hdr el' = Some (hdr_set (hdr_prep1 h0 (lenN secs)) HShoff (pos2 + (16 - pos2 mod 16))) /\
    el_segs el' = [g'] /\ el_secs el' = secs' /\
    el_xlat el' = el_xlat el /\ el_compr el' = el_compr el /\ el_stream el' = el_stream el /\
    pos0 <= seg_start /\ seg_start < pos0 + align /\ seg_start mod align = p_vaddr g mod align /\
    p_offset g' = seg_start /\ p_vaddr g' = p_vaddr g /\ p_filesz g' = pos1 - seg_start /\ p_filesz g' <= p_memsz g' /\
    (g_sections g' = idxs /\ g_offset_set g' = true /\ p_align g' = p_align g /\ p_type g' = p_type g /\ g_cls g' = g_cls g /\
     g_index g' = g_index g /\ p_flags g' = p_flags g /\ p_paddr g' = p_paddr g) /\
    mchain g seg_start secs' idxs seg_start pos1 /\
    Forall2 (fun i s => exists a o, nth_optN secs' i = Some (with_offset (with_addr s a) o)) idxs ms /\
    (forall j s, ~ In j idxs -> nth_optN secs j = Some s -> exists s', nth_optN secs' j = Some s' /\ keeps s s') /\
    lenN secs' = lenN secs /\
    chain (free_list [g'] 0 secs') pos1 pos2 /\
    pos1 <= seg_start + mbudget ms /\ pos2 <= pos1 + budget secs.
Proof.
  cbv zeta. intros [Hh Hs Hnsec Hlen Hne Hos Hty Hnd HF Hauto Hdom Hb64 Hcls Hbg Hal Hbud].
  assert (Ha1 : 1 <= (if 0 <? p_align g then p_align g else 1)) by (destruct (N.ltb_spec 0 (p_align g)); lia).
  set (align := if 0 <? p_align g then p_align g else 1) in *.
  pose proof (Forall_of_nth_optN _ _ _ _ HF Hcls) as Hcls_ms.
  rewrite (layout_single el h0 g Hh Hs Hnsec); [|apply calc_seg_align_noop; rewrite (proj2 (seg_sections_all g Hlen))|lia].
  2:{ intros i Hi. destruct (Forall2_both_In _ _ _ _ i HF HF Hi) as (s & Hsin & Hsi & _).
      rewrite Forall_forall in Hdom. eauto. }
  set (pos0 := e_ehsize h0 + e_phentsize h0) in *. set (h4 := hdr_prep1 h0 (lenN (el_secs el))).
  pose proof (layout_one_segment_auto h4 g (el_secs el) (repeatN false (lenN (el_secs el))) pos0 bound ms Hlen Hne Hos Hty Hnd HF Hauto) as E1.
  cbv zeta in E1. destruct E1 as (A1 & A2 & A3 & gen' & E1); [|exact Hb64|exact Hal|fold align; lia|].
  { intros i Hi. apply nth_optN_repeatN.
    destruct (Forall2_both_In _ _ _ _ i HF HF Hi) as (s & _ & Hsi & _). exact (nth_optN_lt _ _ _ Hsi). }
  fold align in A2, A3. rewrite E1. cbn [bind]. set (ss := seg_start_at pos0 g) in *. clearbody ss. revert A3.
  set (R := place_members (p_vaddr g) ss ss ms) in *.
  destruct (place_members_bounds (p_vaddr g) ss ms ss) as [B1 B2]. fold R in B1, B2.
  destruct (seg_laid_fields g ss (snd R) bound Hbg B1 ltac:(lia)) as (O1 & F1 & M1 & V1 & G).
  pose proof (upd_list_nth _ ms (fst R) (el_secs el) Hnd HF (lenN_place_members _ _ _ _)) as HU.
  destruct (place_members_chain g ss bound _ ms (g_sections g) ss HU Hcls_ms (N.le_refl _) ltac:(lia)) as [Ch _].
  pose proof (place_members_at (p_vaddr g) ss (el_secs el) (g_sections g) ms ss Hnd HF) as PL. fold R in HU, Ch, PL.
  set (g' := seg_laid g ss (snd R)) in *. set (secs1 := upd_list (el_secs el) (g_sections g) (fst R)) in *.
  assert (HR : Forall2 (fun s s1 => s1 = s \/ exists a o, s1 = with_offset (with_addr s a) o) (el_secs el) secs1).
  { apply Forall2_of_nth; [apply lenN_upd_list|]. intros j x Hj.
    destruct (in_dec N.eq_dec j (g_sections g)) as [Hin|Hnin].
    - destruct (Forall2_both_In _ _ _ _ j HF PL Hin) as (s & _ & Hsj & (a & o & Hs1)).
      rewrite Hj in Hsj. injection Hsj as <-. eexists. split; [exact Hs1|]. right. eauto.
    - exists x. split; [unfold secs1; rewrite upd_list_other by exact Hnin; exact Hj|now left]. }
  assert (Hbud1 : budget secs1 = budget (el_secs el) /\ Forall (fun s => bound <= 2 ^ xw (s_cls s)) secs1).
  { clear - HR Hcls. induction HR as [|s s1 t t1 H _ IH]; [split; [reflexivity|constructor]|].
    inversion Hcls as [|? ? C1 C2]; subst. destruct (IH C2) as [IB IC]. cbn [budget fold_right]. fold (budget t) (budget t1).
    rewrite IB. destruct H as [->|(a & o & ->)]; (split; [reflexivity|constructor; assumption]). }
  destruct Hbud1 as [Eb Hcls1].
  destruct (lfs_local_spec bound (sec_without_segment [g']) secs1 0 (snd R) Hb64 Hcls1 ltac:(lia)) as (K & Chf & Le).
  rewrite <- free_list_pick in Chf.
  set (secs' := fst (lfs_local (sec_without_segment [g']) 0 secs1 (snd R))) in *.
  set (pos2 := snd (lfs_local (sec_without_segment [g']) 0 secs1 (snd R))) in *. clearbody pos2.
  assert (P3 : pos2 + 16 < 2 ^ 64) by (clear - Le Eb B2 A2 Hbud Hb64; lia).
  rewrite add64_id by (clear - P3; pose proof (N.mod_lt pos2 16 ltac:(lia)); lia).
  destruct G as (G1 & G2 & G3 & G4 & G5 & G6 & G7 & G8).
  assert (Hmem : forall k, In k (g_sections g) -> nth_optN secs' k = nth_optN secs1 k).
  { intros k Hk. apply lfs_local_member; rewrite G1; assumption. }
  intros A3. eexists _, g', secs', ss, (snd R), pos2. split; [reflexivity|]. cbn [el_hdr el_segs el_secs el_xlat el_compr el_stream].
  do 6 (split; [reflexivity|]).
  split; [exact A1|]. split; [exact A2|]. split; [exact A3|]. split; [exact O1|]. split; [exact V1|].
  split; [exact F1|]. split; [exact M1|]. split; [repeat split; assumption|].
  split; [exact (mchain_frame g ss secs1 secs' _ _ _ Hmem Ch)|].
  split.
  { eapply Forall2_impl_In; [|exact PL]. intros i s Hi (a & o & Hs1). exists a, o. now rewrite Hmem. }
  split.
  { intros j s Hnin Hj. apply (Forall2_nth_l _ _ _ K j s). unfold secs1. now rewrite upd_list_other. }
  split; [rewrite (Forall2_lenN _ _ _ K); apply lenN_upd_list|].
  split; [exact Chf|]. split; [exact B2|]. rewrite Eb in Le. exact Le.
Qed.
