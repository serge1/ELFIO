(* Notes_proofs.v — C13: a note stored with the ABI encoding is returned unchanged;
   the walker over a table of such notes finds exactly their start positions. *)
From ElfioV Require Import Bytes Mem SectionData SectionData_proofs Table Accessors Elfio_proofs.
Local Open Scope N_scope.

Definition note_rec (e : endian) (ty : N) (name desc : bytes) : bytes := enc_note e ty name desc.

(* header of three words, the name with its terminator and padding, the padded descriptor *)
Lemma note_shape e ty name desc : lenN name + 1 < 2 ^ 32 -> lenN desc < 2 ^ 32 ->
  enc_note e ty name desc =
    enc_fields e [4; 4; 4]%nat [lenN name + 1; lenN desc; wrap32 ty] ++
    (name ++ 0 :: repeatN 0 ((4 - (lenN name + 1) mod 4) mod 4)) ++
    (if lenN desc =? 0 then [] else desc ++ repeatN 0 ((4 - lenN desc mod 4) mod 4)).
Proof.
  intros Hn Hd. unfold enc_note, wrap32. rewrite (wrap_small 32 (lenN name + 1)), (wrap_small 32 (lenN desc)) by assumption.
  cbn [enc_fields]. now rewrite <- !app_assoc.
Qed.

Lemma lenN_enc_note e ty name desc : lenN name + 4 < 2 ^ 32 -> lenN desc + 3 < 2 ^ 32 ->
  lenN (enc_note e ty name desc) = 12 + pad4_32 (lenN name + 1) + pad4_32 (lenN desc).
Proof.
  intros Hn Hd. rewrite note_shape by lia. rewrite !lenN_app, lenN_enc_fields by reflexivity.
  rewrite lenN_cons, lenN_repeatN, !pad4_32_spec by lia. change (layout_size [4; 4; 4]%nat) with 12.
  generalize ((4 - (lenN name + 1) mod 4) mod 4). intro pn.
  destruct (N.eqb_spec (lenN desc) 0) as [E|E].
  - rewrite E, lenN_nil. change ((4 - 0 mod 4) mod 4) with 0. lia.
  - rewrite lenN_app, lenN_repeatN. generalize ((4 - lenN desc mod 4) mod 4). intro pd. lia.
Qed.

Lemma note_hdr_reads e (b post : bytes) pos ty name desc :
  skipnN b pos = enc_note e ty name desc ++ post -> lenN name + 1 < 2 ^ 32 -> lenN desc < 2 ^ 32 ->
  rd_word e (Some b) pos 4 = Ok (lenN name + 1) /\ rd_word e (Some b) (pos + 4) 4 = Ok (lenN desc) /\
  rd_word e (Some b) (pos + 8) 4 = Ok (wrap32 ty).
Proof.
  intros Hb Hn Hd. rewrite note_shape, <- app_assoc in Hb by assumption.
  pose proof (rd_word_field e 0 Hb eq_refl eq_refl Hn) as R0. rewrite N.add_0_r in R0.
  split; [exact R0|]. split.
  - exact (rd_word_field e 1 Hb eq_refl eq_refl Hd).
  - exact (rd_word_field e 2 Hb eq_refl eq_refl (wrap_lt 32 ty)).
Qed.

Theorem note_at_spec e (b post : bytes) ty name desc size pos :
  skipnN b pos = enc_note e ty name desc ++ post ->
  lenN name + 4 < 2 ^ 32 -> lenN desc + 3 < 2 ^ 32 ->
  pos + lenN (enc_note e ty name desc) <= size -> size < 2 ^ 63 ->
  note_at e (Some b) size pos =
    Ok (Some (mkNoteview (wrap32 ty) name (if lenN desc =? 0 then None else Some desc) (lenN desc))).
Proof.
  intros Hb Hn Hd Hsz H63.
  destruct (note_hdr_reads e b post pos ty name desc Hb ltac:(lia) ltac:(lia)) as (Rn & Rd & Rt).
  unfold note_at. rewrite Rt, Rn, Rd. cbn [bind]. clear Rt Rn Rd.
  rewrite lenN_enc_note in Hsz by assumption.
  pose proof (pad4_32_bounds (lenN name + 1) ltac:(lia)) as Pn. pose proof (pad4_32_bounds (lenN desc) Hd) as Pd.
  rewrite wrap64_sub by lia.
  destruct (N.ltb_spec (lenN name + 1) 1); [lia|]. destruct (N.ltb_spec (size - pos) (lenN name + 1)); [lia|].
  destruct (N.ltb_spec (size - pos) (lenN name + 1 + lenN desc)); [lia|]. cbn [orb].
  rewrite note_shape, <- !app_assoc in Hb by lia.
  apply skipnN_after in Hb. rewrite lenN_enc_fields in Hb by reflexivity. change (layout_size [4; 4; 4]%nat) with 12 in Hb.
  replace (lenN name + 1 - 1) with (lenN name) by lia. rewrite (rd_at _ _ _ _ Hb). cbn [bind].
  apply skipnN_after, (skipnN_after _ (0 :: _)) in Hb. rewrite lenN_cons, lenN_repeatN, <- !N.add_assoc, (N.add_assoc (lenN name)) in Hb.
  rewrite pad4_32_spec, <- N.add_assoc by lia.
  destruct (N.eqb_spec (lenN desc) 0) as [E|E]; [rewrite E; reflexivity|].
  rewrite <- app_assoc in Hb. rewrite (rd_at _ _ _ _ Hb). reflexivity.
Qed.

(* a table of notes and the positions at which they start *)
Definition note3 := (N * bytes * bytes)%type.
Definition rec3 (e : endian) (n : note3) : bytes := enc_note e (fst (fst n)) (snd (fst n)) (snd n).
Definition note_small (n : note3) : Prop := lenN (snd (fst n)) + 4 < 2 ^ 32 /\ lenN (snd n) + 3 < 2 ^ 32.
Fixpoint starts_from (e : endian) (pos : N) (ns : list note3) : list N :=
  match ns with [] => [] | n :: t => pos :: starts_from e (pos + lenN (rec3 e n)) t end.

Theorem note_walk_spec e : forall (ns : list note3) (b post : bytes) fuel size pos acc,
  Forall note_small ns -> skipnN b pos = concat (map (rec3 e) ns) ++ post ->
  size = pos + lenN (concat (map (rec3 e) ns)) -> size < 2 ^ 30 -> lenN ns < lenN fuel ->
  note_walk fuel (Some b) e size pos acc = Ok (acc ++ starts_from e pos ns).
Proof.
  induction ns as [|[[ty name] desc] t IH]; intros b post fuel size pos acc Hs Hb Esz Hsz Hf;
    (destruct fuel as [|u f]; [cbn in Hf; lia|]); cbn [map concat starts_from note_walk] in *.
  - rewrite lenN_nil, N.add_0_r in Esz. subst size. unfold wrap64. rewrite wrap_small by lia.
    destruct (N.leb_spec (pos + 12) pos); [lia|]. now rewrite app_nil_r.
  - inversion Hs as [|? ? [Hn Hd] Ht]; subst. cbn [fst snd] in Hn, Hd.
    change (rec3 e (ty, name, desc)) with (enc_note e ty name desc) in *.
    rewrite <- app_assoc in Hb. rewrite lenN_app in Hsz |- *. rewrite !lenN_cons in Hf.
    pose proof (lenN_enc_note e ty name desc Hn Hd) as HL.
    destruct (note_hdr_reads e b _ pos ty name desc Hb ltac:(lia) ltac:(lia)) as (-> & -> & _). cbn [bind].
    rewrite <- HL.
    pose proof (pad4_32_bounds (lenN name + 1) ltac:(lia)) as Pn. pose proof (pad4_32_bounds (lenN desc) Hd) as Pd.
    set (r := enc_note e ty name desc) in *. set (size := pos + (lenN r + _)) in *.
    unfold wrap32, wrap64. rewrite (wrap_small 32 (lenN r)), !wrap_small by lia.
    destruct (N.leb_spec (pos + 12) size); [|lia]. destruct (N.ltb_spec (lenN name + 1) size); [|lia].
    destruct (N.ltb_spec (lenN desc) size); [|lia]. destruct (N.leb_spec (pos + lenN r) size); [|lia].
    cbn [andb]. rewrite (IH b post f _ _ _ Ht (skipnN_after _ _ _ _ Hb)) by lia.
    now rewrite <- app_assoc.
Qed.

(* add_note's bookkeeping: the adding accessor records exactly the start positions *)
Section Adds.
  Variable junk : N -> N.
  Variable xe : bool.

  Fixpoint note_adds (e : endian) (s : section) (starts : list N) (ns : list note3) : res (section * list N) :=
    match ns with
    | [] => Ok (s, starts)
    | n :: t => '(s1, st1) <- note_add_sec junk xe e s starts (fst (fst n)) (snd (fst n)) (snd n) ;; note_adds e s1 st1 t
    end.

  (* the induction of [append_all_spec] once more: the start positions are the sizes of the intermediate sections *)
  Theorem note_adds_spec e : forall ns s starts,
    Inv s -> sh_size s + lenN (concat (map (rec3 e) ns)) < size_bound (s_cls s) ->
    exists s' , note_adds e s starts ns = Ok (s', starts ++ starts_from e (sh_size s) ns) /\
      Inv s' /\ contents s' = contents s ++ concat (map (rec3 e) ns) /\ s_cls s' = s_cls s.
  Proof.
    induction ns as [|n t IH]; intros s starts HI Hb; cbn [note_adds map concat starts_from] in *.
    - exists s. rewrite !app_nil_r. auto.
    - unfold note_add_sec. fold (rec3 e n). rewrite lenN_app in Hb.
      destruct (append_data_exact junk xe s (rec3 e n) HI ltac:(lia)) as (s1 & -> & I1 & C1 & K1 & _ & Z1). cbn [bind].
      destruct (IH s1 (starts ++ [sh_size s]) I1 ltac:(rewrite K1, Z1; lia)) as (s' & -> & I' & C' & K').
      exists s'. rewrite <- app_assoc, Z1, C', C1, <- app_assoc, K', K1. auto.
  Qed.
End Adds.
