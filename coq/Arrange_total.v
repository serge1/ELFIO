(* Arrange_total.v — C18: arrange_local_symbols never faults on a loaded object
   whose symbol entries have the size of the symbol record, whatever the bytes. *)
From ElfioV Require Import Bytes Mem Stream SectionData Strings Elfio Table Accessors Loader Load_proofs Safety_proofs Arrange_proofs.
From Coq Require Import ZifyBool ZifyN ZifyNat Permutation.
Local Open Scope N_scope.

(* any buffer is a table of chunks followed by a tail *)
Definition norm (esz : N) (x : bytes) : bytes := firstnN (x ++ repeatN 0 esz) esz.
Lemma lenN_norm esz x : lenN (norm esz x) = esz.
Proof. unfold norm. rewrite lenN_firstnN, lenN_app, lenN_repeatN. lia. Qed.
Lemma norm_id esz x : lenN x = esz -> norm esz x = x.
Proof. intros H. unfold norm. now apply firstnN_app_exact. Qed.

Lemma chunks_exist esz (Hp : 0 < esz) : forall (n : nat) (b : bytes), N.of_nat n * esz <= lenN b ->
  exists es tl, b = concat (map (norm esz) es) ++ tl /\ lenN es = N.of_nat n.
Proof.
  induction n as [|n IH]; intros b H.
  - exists [], b. split; reflexivity.
  - assert (Hs : esz <= lenN b) by lia.
    destruct (IH (skipnN b esz)) as (es & tl & E & L); [rewrite lenN_skipnN; lia|].
    exists (firstnN b esz :: es), tl. split.
    + cbn [map concat]. rewrite norm_id by (rewrite lenN_firstnN; lia). rewrite <- app_assoc, <- E. symmetry. apply firstnN_skipnN.
    + rewrite lenN_cons, L. lia.
Qed.

Theorem arrange_loop_total c (b : bytes) count :
  let esz := layout_sz (sym_layout c) in
  count * esz <= lenN b -> count * esz < 2 ^ 64 ->
  exists p r log, arrange_loop (0 :: 0 :: b) (Some b) c esz count 1 [] = Ok (p, r, log) /\
                  exists b', p = Some b' /\ lenN b' = lenN b.
Proof.
  cbv zeta. intros Hc Hb.
  set (esz := layout_sz (sym_layout c)).
  assert (Hesz : esz = match c with C32 => 16 | C64 => 24 end) by (unfold esz; destruct c; reflexivity).
  assert (Hp : 0 < esz) by (rewrite Hesz; destruct c; lia).
  destruct (N.eq_dec count 0) as [->|Hnz].
  - (* an empty table: both scans stop at once *)
    cbn [arrange_loop scan_bind bind]. change (1 <? 0) with false. cbn [bind]. change (wrap64 (1 + 1) <? 0) with false.
    cbn [bind andb]. eexists _, _, _. split; [reflexivity|]. eauto.
  - destruct (chunks_exist esz Hp (N.to_nat count) b ltac:(lia)) as (es & tl & E & L).
    rewrite N2Nat.id in L.
    pose proof (arrange_loop_correct (norm esz) c (fun x => N.shiftr (nthN (norm esz x) (sym_info_off c) 0) 4 =? STB_LOCAL)
                  (lenN_norm esz) (fun x => eq_refl) es tl) as AC.
    fold esz in AC. unfold tbl in AC. rewrite <- E, L in AC.
    destruct AC as (es' & r & log & EQ & _ & L' & _); [lia| |].
    { exact Hb. }
    rewrite EQ. eexists _, r, log. split; [reflexivity|]. eexists. split; [reflexivity|].
    rewrite E, !lenN_app, !(lenN_concat_enc _ esz (lenN_norm esz)), L', L. reflexivity.
Qed.

Section ElLevel.
  Variable junk : N -> N.

  Lemma acls_same el el1 : same_shape el el1 -> acls el1 = acls el.
  Proof. intros H. unfold acls, class32, el_class_byte. now rewrite (same_shape_hdr _ _ H). Qed.

  Theorem arrange_local_symbols_total content k el symsec s0 :
    loaded_ok content k el -> get_sec el symsec = Some s0 ->
    sh_entsize s0 = layout_sz (sym_layout (acls el)) -> sh_size s0 < 2 ^ 64 ->
    exists el1 r log, arrange_local_symbols junk el symsec = Ok (el1, r, log).
  Proof.
    intros H Hg He Hs. unfold arrange_local_symbols.
    destruct (sec_data_total junk content k el symsec s0 H Hg) as (el1 & s1 & E & K & G & B & HS).
    rewrite E. cbn [bind]. destruct (s_data s1) as [b|] eqn:Ed; [|eauto]. cbn in B.
    pose proof (get_symbols_num_bound el1 s1) as [N1 _].
    rewrite <- (hdr_same_size _ _ HS) in Hs. rewrite (hdr_same_entsize _ _ HS), He, <- (acls_same el el1 (kept_shape K)) in *.
    destruct (arrange_loop_total (acls el1) b (get_symbols_num el1 s1)) as (p & r & log & -> & _); [lia|lia|].
    cbn [bind]. rewrite G. eauto.
  Qed.
End ElLevel.
