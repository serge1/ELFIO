(* Strings_proofs.v — C08: added strings stay retrievable; lookups are safe. *)
From ElfioV Require Import Bytes Mem SectionData SectionData_proofs Strings.
Local Open Scope N_scope.

(* lookup as a function of the logical contents only *)
Definition gs_c (c : bytes) (i : N) : option bytes :=
  if lenN c <=? i then None
  else match find0 (skipnN c i) (lenN c - i) 0 with
       | Some k => Some (firstnN (skipnN c i) k)
       | None => None
       end.



Lemma get_string_contents b size i :
  size <= lenN b -> get_string_raw (Some b) size i = Ok (gs_c (firstnN b size) i).
Proof.
  intros Hs. unfold get_string_raw, gs_c. rewrite lenN_firstnN, (N.min_l _ _ Hs).
  destruct (N.leb_spec size i) as [|Hi]; [reflexivity|].
  rewrite skipnN_firstnN_comm, find0_firstnN by lia.
  destruct (find0 (skipnN b i) (size - i) 0) as [k|] eqn:E.
  - apply find0_Some in E as (s & r & _ & _ & Hk & ->). rewrite firstnN_firstnN. do 3 f_equal. lia.
  - now rewrite (proj2 (N.ltb_ge _ _) Hs).
Qed.

Lemma get_string_Inv s i : Inv s -> get_string s i = Ok (gs_c (contents s) i).
Proof.
  intros HI. apply Inv_iff in HI as (_ & _ & H1 & H2). unfold get_string, contents. destruct (s_data s) as [b|].
  - apply get_string_contents. cbn [pbuf] in H2. lia.
  - unfold gs_c. cbn. now destruct i.
Qed.

Lemma gs_c_iff c i t : gs_c c i = Some t <->
  nul_free t /\ exists p r, c = p ++ t ++ 0 :: r /\ lenN p = i.
Proof.
  unfold gs_c. split.
  - destruct (N.leb_spec (lenN c) i) as [|Hi]; [discriminate|].
    destruct (find0 _ _ 0) as [k|] eqn:E; [|discriminate]. intros [= <-].
    apply find0_Some in E as (s & r & E & Hs & _ & ->).
    rewrite E, firstnN_app_exact by reflexivity. split; [exact Hs|].
    exists (firstnN c i), r. rewrite <- E, firstnN_skipnN, lenN_firstnN. split; [reflexivity|lia].
  - intros (Ht & p & r & -> & <-). rewrite skipnN_app_exact, !lenN_app, lenN_cons by reflexivity.
    rewrite (proj2 (N.leb_gt _ _)), find0_app_nul by (assumption || lia).
    now rewrite firstnN_app_exact.
Qed.

Lemma gs_c_app c r i t : gs_c c i = Some t -> gs_c (c ++ r) i = Some t.
Proof.
  rewrite !gs_c_iff. intros (Ht & p & r0 & -> & Hp). split; [exact Ht|].
  exists p, (r0 ++ r). now rewrite <- !app_assoc.
Qed.

Lemma gs_c_new c str r : nul_free str -> gs_c (c ++ str ++ 0 :: r) (lenN c) = Some str.
Proof. intros Hn. apply gs_c_iff. eauto. Qed.

Lemma gs_c_sound c i t :
  gs_c c i = Some t ->
  i + lenN t < lenN c /\ nul_free t /\ sliceN c i (lenN t + 1) = t ++ [0].
Proof.
  rewrite gs_c_iff. intros (Ht & p & r & -> & <-). rewrite !lenN_app, lenN_cons.
  split; [lia|]. split; [exact Ht|]. unfold sliceN. rewrite skipnN_app_exact by reflexivity.
  change (t ++ 0 :: r) with (t ++ [0] ++ r). rewrite app_assoc. apply firstnN_app_exact. now rewrite lenN_app.
Qed.

Section Proofs.
  Variable junk : N -> N.
  Variable xe : bool.

  Definition str_ok (s : section) : Prop := Inv s /\ sh_size s < 2 ^ 32.

  Lemma add_string_spec s str :
    Inv s -> nul_free str -> sh_size s + lenN str + 2 < 2 ^ 32 ->
    exists s' idx, add_string junk xe s str = Ok (s', idx) /\ Inv s' /\
      s_cls s' = s_cls s /\
      contents s' = (if sh_size s =? 0 then [0] else contents s) ++ str ++ [0] /\
      idx = (if sh_size s =? 0 then 1 else sh_size s) /\
      sh_size s' = idx + lenN str + 1.
  Proof.
    intros HI Hn Hb. unfold add_string, wrap32, WORD_MAX. rewrite (wrap_small 32 (sh_size s)) by lia.
    (* an empty table first receives the empty string *)
    assert (H1 : exists s1,
              (if sh_size s =? 0 then s' <- append_data junk xe s [0] ;; Ok (s', sh_size s + 1) else Ok (s, sh_size s))
              = Ok (s1, if sh_size s =? 0 then 1 else sh_size s) /\ Inv s1 /\ s_cls s1 = s_cls s /\
              contents s1 = (if sh_size s =? 0 then [0] else contents s) /\
              sh_size s1 = (if sh_size s =? 0 then 1 else sh_size s)).
    { destruct (N.eqb_spec (sh_size s) 0) as [E0|_]; [|eauto 10].
      destruct (append_data_exact junk xe s [0] HI) as (s1 & -> & I1 & C1 & K1 & _ & S1); [apply size_bound_32; cbn; lia|].
      rewrite (lenN_0 (contents s)) in C1 by now rewrite lenN_contents. rewrite E0 in *. exists s1. cbn [bind]. auto 10. }
    destruct H1 as (s1 & -> & I1 & K1 & C1 & S1). cbn [bind].
    set (idx := if sh_size s =? 0 then 1 else sh_size s) in *.
    assert (Hi : idx <= sh_size s + 1) by (unfold idx; destruct (sh_size s =? 0); lia).
    rewrite (proj2 (N.ltb_ge _ _)), (wrap_small 32 (lenN str + 1)), (proj2 (N.ltb_ge _ _)) by lia.
    destruct (append_data_exact junk xe s1 (str ++ [0]) I1) as (s2 & -> & I2 & C2 & K2 & _ & S2).
    { apply size_bound_32. rewrite S1, lenN_app. cbn [lenN]. lia. }
    cbn [bind]. exists s2, idx. rewrite C2, C1, S2, S1, K2, lenN_app, N.add_assoc. auto 10.
  Qed.

  (* the returned index retrieves the string; earlier answers are preserved;
     index 0 of a non-empty table is the empty string *)
  Theorem add_string_retrievable s str :
    Inv s -> nul_free str -> sh_size s + lenN str + 2 < 2 ^ 32 ->
    exists s' idx, add_string junk xe s str = Ok (s', idx) /\ Inv s' /\
      get_string s' idx = Ok (Some str) /\
      (forall j t, get_string s j = Ok (Some t) -> get_string s' j = Ok (Some t)) /\
      (sh_size s = 0 -> get_string s' 0 = Ok (Some [])) /\
      sh_size s' <= (if sh_size s =? 0 then 1 else sh_size s) + lenN str + 1.
  Proof.
    intros HI Hn Hb.
    destruct (add_string_spec s str HI Hn Hb) as (s' & idx & E & I' & K & C & Ei & S').
    exists s', idx. split; [exact E|]. split; [exact I'|].
    rewrite (get_string_Inv s' idx I'), C, S', Ei. pose proof (lenN_contents _ HI) as L0.
    split; [|split; [|split; [|apply N.le_refl]]].
    - f_equal. destruct (N.eqb_spec (sh_size s) 0); [|rewrite <- L0]; exact (gs_c_new _ str [] Hn).
    - intros j t Hj. rewrite (get_string_Inv s j HI) in Hj. injection Hj as Hj.
      rewrite (get_string_Inv s' j I'), C. f_equal.
      destruct (N.eqb_spec (sh_size s) 0) as [E0|E0]; [|now apply gs_c_app].
      apply gs_c_sound in Hj as [Hj _]. lia.
    - intros E0. rewrite (get_string_Inv s' 0 I'), C, E0. f_equal. exact (gs_c_new [] [] _ (Forall_nil _)).
  Qed.

End Proofs.

(* any lookup on any table whose buffer is at least as long as its size:
   null, or a NUL-terminated string wholly inside the section; never a fault *)
Theorem lookup_safe b size i :
  size <= lenN b ->
  get_string_raw (Some b) size i = Ok None \/
  exists t, get_string_raw (Some b) size i = Ok (Some t) /\
    i + lenN t < size /\ nul_free t /\ sliceN b i (lenN t + 1) = t ++ [0].
Proof.
  intros Hs. rewrite get_string_contents by assumption.
  destruct (gs_c (firstnN b size) i) as [t|] eqn:E; [right|left; reflexivity].
  exists t. split; [reflexivity|].
  destruct (gs_c_sound _ _ _ E) as (H1 & H2 & H3).
  rewrite lenN_firstnN in H1. split; [lia|]. split; [assumption|].
  rewrite <- H3. symmetry. apply sliceN_prefix. lia.
Qed.

Theorem lookup_null_safe size i : get_string_raw None size i = Ok None.
Proof. reflexivity. Qed.
