(* World_proofs.v — C19: objects are values; a move transfers the value and
   leaves the source an empty, re-usable object; nothing done to one object
   changes another. *)
From ElfioV Require Import Bytes Mem Stream Elfio Loader Script.
Local Open Scope N_scope.

Lemma find_filter_other {V} (l : list (N * V)) k j :
  j <> k -> find (fun p => fst p =? j) (filter (fun p => negb (fst p =? k)) l) = find (fun p => fst p =? j) l.
Proof.
  intros H. induction l as [|[a v] t IH]; cbn [find filter fst]; [reflexivity|].
  destruct (N.eqb_spec a k) as [->|Hak]; cbn [negb].
  - destruct (N.eqb_spec k j); [congruence|]. exact IH.
  - cbn [find fst]. destruct (a =? j); [reflexivity|exact IH].
Qed.

Theorem obj_put_other w k v j : j <> k -> obj_get (obj_put w k v) j = obj_get w j.
Proof.
  intros H. unfold obj_put, obj_get. destruct (N.eqb_spec k (w_cur w)) as [->|Hk]; cbn [w_cur w_others w_el w_accs w_allocs].
  - destruct (N.eqb_spec j (w_cur w)); [contradiction|]. reflexivity.
  - destruct (N.eqb_spec j (w_cur w)); [reflexivity|]. cbn [find fst].
    destruct (N.eqb_spec k j); [congruence|]. now rewrite find_filter_other.
Qed.
Theorem obj_put_same w k v : obj_get (obj_put w k v) k = Some v.
Proof.
  unfold obj_put, obj_get. destruct (N.eqb_spec k (w_cur w)) as [->|Hk]; cbn [w_cur w_others w_el w_accs w_allocs].
  - rewrite N.eqb_refl. destruct v as [[e a] al]. reflexivity.
  - destruct (N.eqb_spec k (w_cur w)); [contradiction|]. cbn [find fst]. now rewrite N.eqb_refl.
Qed.
Theorem obj_del_other w k j : j <> k -> obj_get (obj_del w k) j = obj_get w j.
Proof.
  intros H. unfold obj_del, obj_get. cbn [w_cur w_others w_el w_accs w_allocs]. destruct (j =? w_cur w); [reflexivity|]. now rewrite find_filter_other.
Qed.

(* what both moves do to the store: the source is overwritten, then the destination *)
Lemma move_puts w dst src vs vd : dst <> src ->
  let w' := obj_put (obj_put w src vs) dst vd in
  obj_get w' dst = Some vd /\ obj_get w' src = Some vs /\ (forall j, j <> dst -> j <> src -> obj_get w' j = obj_get w j).
Proof.
  intros Hne. split; [apply obj_put_same|]. split.
  - rewrite obj_put_other by congruence. apply obj_put_same.
  - intros j H1 H2. now rewrite !obj_put_other.
Qed.

(* move construction: the destination is the source's value; the source is an
   empty object; every third object is untouched *)
Theorem move_ctor_spec w dst src e a al :
  dst <> src -> obj_get w src = Some (e, a, al) ->
  exists w', step_world w (OpMoveCtor dst src) = Some (Ok (w', [])) /\
    obj_get w' dst = Some (e, [], al) /\
    obj_get w' src = Some (moved_from e false, [], []) /\
    (forall j, j <> dst -> j <> src -> obj_get w' j = obj_get w j).
Proof.
  intros Hne Hs. cbn [step_world]. rewrite Hs. eexists. split; [reflexivity|]. now apply move_puts.
Qed.

Theorem move_assign_spec w dst src e a al d :
  dst <> src -> obj_get w src = Some (e, a, al) -> obj_get w dst = Some d ->
  exists w', step_world w (OpMoveAssign dst src) = Some (Ok (w', [])) /\
    obj_get w' dst = Some (e, [], al) /\
    obj_get w' src = Some (moved_from e true, [], []) /\
    (forall j, j <> dst -> j <> src -> obj_get w' j = obj_get w j).
Proof.
  intros Hne Hs Hd. cbn [step_world]. destruct (N.eqb_spec dst src); [contradiction|]. rewrite Hs, Hd.
  eexists. split; [reflexivity|]. now apply move_puts.
Qed.

(* destroying the source afterwards does not change the destination *)
Theorem destroy_spec w k :
  k <> w_cur w ->
  exists w', step_world w (OpDestroy k) = Some (Ok (w', [])) /\ forall j, j <> k -> obj_get w' j = obj_get w j.
Proof.
  intros H. cbn [step_world]. destruct (N.eqb_spec k (w_cur w)); [contradiction|].
  eexists. split; [reflexivity|]. intros j Hj. now apply obj_del_other.
Qed.

Theorem moved_from_is_empty e b :
  el_hdr (moved_from e b) = None /\ el_secs (moved_from e b) = [] /\ el_segs (moved_from e b) = [] /\
  el_xlat (moved_from e b) = [] /\ el_compr (moved_from e b) = false /\ el_stream (moved_from e b) = None.
Proof. repeat split. Qed.

(* re-initialising any used object gives the sections, segments, header of a
   fresh one: create() does not look at what the object held *)
Theorem create_ignores_contents junk el1 el2 c e :
  el_xlat el1 = el_xlat el2 -> el_pos el1 = el_pos el2 -> el_compr el1 = el_compr el2 -> el_stream el1 = el_stream el2 ->
  create junk el1 c e = create junk el2 c e.
Proof. intros H1 H2 H3 H4. unfold create. now rewrite H1, H2, H3, H4. Qed.

(* load looks at the header, the translator, the position and the compression flag of the object it is given,
   at nothing else: sections and segments are dropped at once, the stream is replaced *)
Lemma load_reads junk el k content lazy :
  load junk el k content lazy = load junk (mkElfio (el_hdr el) [] [] (el_xlat el) (el_pos el) (el_compr el) None) k content lazy.
Proof. reflexivity. Qed.

(* loading into a used object: sections, segments and stream of the previous use do not matter *)
Theorem load_ignores_contents junk el1 el2 k content lazy :
  el_xlat el1 = el_xlat el2 -> el_pos el1 = el_pos el2 -> el_compr el1 = el_compr el2 -> el_hdr el1 = el_hdr el2 ->
  load junk el1 k content lazy = load junk el2 k content lazy.
Proof. intros H1 H2 H3 H4. rewrite (load_reads junk el1), (load_reads junk el2), H1, H2, H3, H4. reflexivity. Qed.

(* ... and once the input passes the identification stage the previous header does not matter either *)
Definition ident_accepted (t : xlat) (k : skind) (content : bytes) : bool :=
  let st1 := seekg (open_istream k content) (xlat_apply t 0%Z) in
  let '(_, ident) := read st1 16 in
  (lenN ident =? 16) &&
  ((nthN ident 0 0 =? 127) && (nthN ident 1 0 =? 69) && (nthN ident 2 0 =? 76) && (nthN ident 3 0 =? 70)) &&
  ((nthN ident 4 0 =? 2) || (nthN ident 4 0 =? 1)) && ((nthN ident 5 0 =? 1) || (nthN ident 5 0 =? 2)).

Theorem load_ignores_header junk el1 el2 k content lazy :
  el_xlat el1 = el_xlat el2 -> el_pos el1 = el_pos el2 -> el_compr el1 = el_compr el2 ->
  ident_accepted (el_xlat el1) k content = true ->
  load junk el1 k content lazy = load junk el2 k content lazy.
Proof.
  intros H1 H2 H3 Hid. rewrite (load_reads junk el1), (load_reads junk el2), H1, H2, H3 in *.
  unfold load, ident_accepted in *. cbn [el_xlat] in *. destruct (read _ 16) as [st2 ident].
  (* the four tests of the identification stage pass; past them the old header is overwritten *)
  apply andb_true_iff in Hid as [Hid Hd]. apply andb_true_iff in Hid as [Hid Hc]. apply andb_true_iff in Hid as [Hl Hm].
  rewrite Hl, Hm, Hc, Hd. reflexivity.
Qed.

(* the remaining case is a genuine dependence on the past (open finding refused-load-keeps-header): an input
   refused at the identification stage leaves the previous header in place *)
Theorem load_refused_keeps_header_refuted :
  exists el1 el2 k content lazy,
    el_xlat el1 = el_xlat el2 /\ el_pos el1 = el_pos el2 /\ el_compr el1 = el_compr el2 /\
    el_secs el1 = el_secs el2 /\ el_segs el1 = el_segs el2 /\
    load (fun _ => 0) el1 k content lazy <> load (fun _ => 0) el2 k content lazy.
Proof.
  exists (empty_elfio false), (with_hdr (empty_elfio false) (Some (new_header C64 MSB))), StringBuf, [1; 2; 3], false.
  repeat split. intro H. vm_compute in H. discriminate H.
Qed.
