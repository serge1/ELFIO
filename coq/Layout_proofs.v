(* Layout_proofs.v — C04/C06 for objects without segments: the sections are
   laid out one after the other, aligned, pairwise disjoint, after the headers;
   laying out again changes nothing. *)
From ElfioV Require Import Bytes Mem Stream SectionData Strings Elfio Table Loader Layout.
From Coq Require Import ZifyBool ZifyN ZifyNat.
Local Open Scope N_scope.

Definition carries (s : section) : bool := negb (sh_type s =? SHT_NOBITS) && negb (sh_type s =? SHT_NULL).
Definition csize (s : section) : N := if carries s then sh_size s else 0.

(* room the sections can take at most *)
Definition budget (l : list section) : N := fold_right (fun s acc => sh_addralign s + sh_size s + acc) 0 l.

(* the sections of [l], in order, lie in [lo, hi]: each one (except index 0,
   whose offset is never assigned) starts aligned at or after the end of the
   previous one *)
Fixpoint chain (l : list section) (lo hi : N) : Prop :=
  match l with
  | [] => lo <= hi
  | s :: t =>
      if s_index s =? 0 then exists lo', lo <= lo' /\ chain t lo' hi
      else lo <= sh_offset s /\ (1 < sh_addralign s -> sh_offset s mod sh_addralign s = 0) /\
           chain t (sh_offset s + csize s) hi
  end.

(* all attributes but the offset are kept *)
Definition keeps (s s' : section) : Prop := s' = s \/ (s_index s <> 0 /\ s' = with_offset s (sh_offset s')).


Lemma add64_id a b : a + b < 2 ^ 64 -> add64 a b = a + b.
Proof. intros H. unfold add64, wrap64, wrap. now apply N.mod_small. Qed.
Lemma sub64_id a b : b <= a -> a < 2 ^ 64 -> sub64 a b = a - b.
Proof. intros Hb Ha. unfold sub64. unfold wrap64 at 2. rewrite wrap_small by lia. now apply wrap64_sub. Qed.
Lemma with_offset_same s : sh_offset s < 2 ^ xw (s_cls s) -> with_offset s (sh_offset s) = s.
Proof. intros H. destruct s; cbn in *. unfold with_offset; cbn. f_equal. unfold wrap. now apply N.mod_small. Qed.

Lemma align_up pos al : 0 < al ->
  let p := pos + (al - pos mod al) mod al in pos <= p /\ p < pos + al /\ p mod al = 0.
Proof.
  intros Hal. cbv zeta. pose proof (N.mod_lt pos al ltac:(lia)) as Hr.
  destruct (N.eq_dec (pos mod al) 0) as [E|E].
  - rewrite E, N.sub_0_r, N.mod_same, N.add_0_r by lia. lia.
  - rewrite (N.mod_small (al - pos mod al)) by lia. repeat split; try lia.
    pose proof (N.div_mod pos al ltac:(lia)) as Hd.
    replace (pos + (al - pos mod al)) with ((pos / al + 1) * al) by lia. apply N.mod_mul. lia.
Qed.

Lemma with_offset_small s v : v < 2 ^ xw (s_cls s) -> sh_offset (with_offset s v) = v.
Proof. intros H. cbn. now apply wrap_small. Qed.

(* what layout_sections_without_segments does to one such section standing at file position [pos] *)
Definition place_free (pos : N) (sec : section) : section * N :=
  let align := sh_addralign sec in
  let pos1 := if (1 <? align) && negb (pos mod align =? 0) then add64 pos (align - pos mod align) else pos in
  let sec1 := if s_index sec =? 0 then sec else with_offset sec pos1 in
  (sec1, if negb (sh_type sec1 =? SHT_NOBITS) && negb (sh_type sec1 =? SHT_NULL) then add64 pos1 (sh_size sec1) else pos1).

(* the pass as a map over the sections still to do ([free j]: section j belongs to no segment);
   [layout_free_sections] writes the same results into its accumulator *)
Fixpoint lfs_local (free : N -> bool) (i : N) (todo : list section) (pos : N) : list section * N :=
  match todo with
  | [] => ([], pos)
  | sec :: t =>
      let r := if free i then place_free pos sec else (sec, pos) in
      let r' := lfs_local free (i + 1) t (snd r) in (fst r :: fst r', snd r')
  end.

Lemma lfs_unfold segs : forall todo pre pos,
  layout_free_sections segs (pre ++ todo) (lenN pre) todo pos =
  (pre ++ fst (lfs_local (sec_without_segment segs) (lenN pre) todo pos),
   snd (lfs_local (sec_without_segment segs) (lenN pre) todo pos)).
Proof.
  induction todo as [|sec t IH]; intros pre pos; cbn [layout_free_sections lfs_local fst snd]; [reflexivity|].
  assert (Hstep : forall s1 p, layout_free_sections segs (pre ++ s1 :: t) (lenN pre + 1) t p =
            (pre ++ s1 :: fst (lfs_local (sec_without_segment segs) (lenN pre + 1) t p),
             snd (lfs_local (sec_without_segment segs) (lenN pre + 1) t p))).
  { intros s1 p. replace (pre ++ s1 :: t) with ((pre ++ [s1]) ++ t) by now rewrite <- app_assoc.
    replace (lenN pre + 1) with (lenN (pre ++ [s1])) by (rewrite lenN_app; cbn; lia).
    rewrite IH, <- app_assoc. reflexivity. }
  destruct (sec_without_segment segs (lenN pre)); [rewrite updN_mid|]; apply Hstep.
Qed.

Lemma lenN_lfs_local free : forall todo i pos, lenN (fst (lfs_local free i todo pos)) = lenN todo.
Proof. induction todo as [|s t IH]; intros i pos; cbn [lfs_local fst]; [reflexivity|]. now rewrite !lenN_cons, IH. Qed.

Fixpoint pick (free : N -> bool) (i : N) (l : list section) : list section :=
  match l with
  | [] => []
  | s :: t => if free i then s :: pick free (i + 1) t else pick free (i + 1) t
  end.
Lemma pick_all free : (forall j, free j = true) -> forall l i, pick free i l = l.
Proof. intros H. induction l as [|s t IH]; intro i; cbn [pick]; [reflexivity|]. now rewrite H, IH. Qed.

Lemma keeps_attrs s s' : keeps s s' ->
  sh_type s' = sh_type s /\ sh_size s' = sh_size s /\ s_index s' = s_index s /\ s_cls s' = s_cls s.
Proof. intros [->|[_ ->]]; repeat split. Qed.

(* [bound] stands for "no wrap anywhere": at most 2^64 (the position arithmetic) and at most the range of every
   section's offset field (the value stored by with_offset) *)
Lemma place_free_spec bound pos sec :
  bound <= 2 ^ 64 -> bound <= 2 ^ xw (s_cls sec) -> pos + sh_addralign sec + sh_size sec < bound ->
  keeps sec (fst (place_free pos sec)) /\ snd (place_free pos sec) <= pos + sh_addralign sec + sh_size sec /\
  forall t hi, chain t (snd (place_free pos sec)) hi -> chain (fst (place_free pos sec) :: t) pos hi.
Proof.
  intros Hb Hc Hbud. unfold place_free. cbv zeta. cbn [fst snd].
  set (align := sh_addralign sec) in *.
  set (pos1 := if (1 <? align) && negb (pos mod align =? 0) then add64 pos (align - pos mod align) else pos).
  assert (P1 : pos <= pos1 /\ pos1 <= pos + align /\ (1 < align -> pos1 mod align = 0)).
  { unfold pos1. destruct (N.ltb_spec 1 align) as [Ha|Ha]; cbn [andb]; [|lia].
    pose proof (N.mod_lt pos align ltac:(lia)) as Hr.
    destruct (N.eqb_spec (pos mod align) 0) as [E0|E0]; cbn [negb]; [lia|].
    destruct (align_up pos align ltac:(lia)) as (U1 & U2 & U3). cbv zeta in U1, U2, U3.
    rewrite (N.mod_small (align - pos mod align)) in U1, U2, U3
      by (apply N.sub_lt; [apply N.lt_le_incl; exact Hr|apply N.neq_0_lt_0; exact E0]).
    rewrite add64_id by (eapply N.lt_trans; [exact U2|clear - Hbud Hb; lia]).
    clear Hr E0. revert U1 U2 U3. generalize (pos + (align - pos mod align)). intros p U1 U2 U3.
    split; [exact U1|]. split; [lia|]. intros _. exact U3. }
  clearbody pos1. destruct P1 as (P1a & P1b & P1c).
  destruct (N.eqb_spec (s_index sec) 0) as [E0|E0].
  - split; [now left|]. set (pos2 := if _ : bool then _ else pos1).
    assert (P2 : pos1 <= pos2 /\ pos2 <= pos1 + sh_size sec).
    { unfold pos2. destruct (_ && _); [rewrite add64_id by lia|]; lia. }
    clearbody pos2. split; [lia|]. intros t hi Ch. cbn [chain]. rewrite E0. exists pos2. split; [lia|exact Ch].
  - cbn [sh_type sh_size with_offset].
    assert (P2 : (if negb (sh_type sec =? SHT_NOBITS) && negb (sh_type sec =? SHT_NULL) then add64 pos1 (sh_size sec) else pos1)
                 = pos1 + csize (with_offset sec pos1)).
    { unfold csize, carries. cbn [sh_type sh_size with_offset]. destruct (_ && _); [apply add64_id|]; lia. }
    rewrite P2. assert (Cs : csize (with_offset sec pos1) <= sh_size sec) by (unfold csize; destruct (carries _); cbn; lia).
    split; [right; split; [exact E0|]; now rewrite with_offset_small by lia|]. split; [lia|].
    intros t hi Ch. cbn [chain s_index with_offset]. destruct (N.eqb_spec (s_index sec) 0); [contradiction|].
    rewrite with_offset_small by lia. cbn [sh_addralign with_offset]. fold align. auto.
Qed.

Lemma place_free_again pos sec : place_free pos (fst (place_free pos sec)) = place_free pos sec.
Proof. unfold place_free. cbv zeta. cbn [fst]. destruct (s_index sec =? 0) eqn:E; [now rewrite E|]. cbn. now rewrite E. Qed.

Theorem lfs_local_spec bound free : forall todo i pos,
  bound <= 2 ^ 64 -> Forall (fun s => bound <= 2 ^ xw (s_cls s)) todo -> pos + budget todo < bound ->
  Forall2 keeps todo (fst (lfs_local free i todo pos)) /\
  chain (pick free i (fst (lfs_local free i todo pos))) pos (snd (lfs_local free i todo pos)) /\
  snd (lfs_local free i todo pos) <= pos + budget todo.
Proof.
  induction todo as [|sec t IH]; intros i pos Hb Hc Hbud; cbn [lfs_local fst snd pick budget fold_right chain] in *.
  - repeat split; try constructor; lia.
  - inversion Hc as [|? ? Hc1 Hc2]; subst. fold (budget t) in *.
    assert (Hr : keeps sec (fst (if free i then place_free pos sec else (sec, pos))) /\
                 snd (if free i then place_free pos sec else (sec, pos)) <= pos + sh_addralign sec + sh_size sec /\
                 forall l hi, chain l (snd (if free i then place_free pos sec else (sec, pos))) hi ->
                   chain (if free i then fst (place_free pos sec) :: l else l) pos hi).
    { destruct (free i); [apply (place_free_spec bound); lia|]. cbn [fst snd]. split; [now left|]. split; [lia|auto]. }
    set (r := if free i then place_free pos sec else (sec, pos)) in *. destruct Hr as (K & Le & Ch).
    destruct (IH (i + 1) (snd r) Hb Hc2 ltac:(lia)) as (IK & ICh & ILe).
    split; [constructor; assumption|]. split; [|lia].
    apply Ch in ICh. unfold r in *. destruct (free i); exact ICh.
Qed.

Lemma lfs_local_other free : forall todo i pos k,
  free (i + k) = false -> nth_optN (fst (lfs_local free i todo pos)) k = nth_optN todo k.
Proof.
  induction todo as [|sec t IH]; intros i pos k Hk; cbn [lfs_local fst nth_optN]; [reflexivity|].
  destruct (N.eqb_spec k 0) as [->|Hk0].
  - rewrite N.add_0_r in Hk. now rewrite Hk.
  - apply IH. now replace (i + 1 + (k - 1)) with (i + k) by lia.
Qed.

(* laying out again changes nothing (C06, the second save re-derives the same offsets) *)
Lemma lfs_local_again free : forall todo i pos,
  lfs_local free i (fst (lfs_local free i todo pos)) pos = lfs_local free i todo pos.
Proof.
  induction todo as [|sec t IH]; intros i pos; cbn [lfs_local fst snd]; [reflexivity|].
  destruct (free i); [rewrite place_free_again|]; cbn [fst snd]; now rewrite IH.
Qed.

Lemma chain_bounds l : forall lo hi, chain l lo hi -> lo <= hi.
Proof.
  induction l as [|s t IH]; intros lo hi H; cbn [chain] in H; [exact H|].
  destruct (s_index s =? 0).
  - destruct H as (lo' & H1 & H2). apply IH in H2. lia.
  - destruct H as (H1 & _ & H3). apply IH in H3. lia.
Qed.

Lemma chain_member l : forall lo hi s, chain l lo hi -> In s l -> s_index s <> 0 ->
  lo <= sh_offset s /\ sh_offset s + csize s <= hi /\ (1 < sh_addralign s -> sh_offset s mod sh_addralign s = 0).
Proof.
  induction l as [|x t IH]; intros lo hi s H Hin Hnz; [contradiction|]. cbn [chain] in H.
  destruct Hin as [->|Hin].
  - destruct (N.eqb_spec (s_index s) 0); [contradiction|]. destruct H as (H1 & H2 & H3).
    apply chain_bounds in H3. auto.
  - destruct (s_index x =? 0).
    + destruct H as (lo' & H1 & H2). destruct (IH _ _ s H2 Hin Hnz) as (A & B & C). repeat split; auto; lia.
    + destruct H as (H1 & _ & H3). destruct (IH _ _ s H3 Hin Hnz) as (A & B & C). repeat split; auto; lia.
Qed.

Theorem chain_disjoint l : forall lo hi pre a mid b post,
  chain l lo hi -> l = pre ++ a :: mid ++ b :: post -> s_index a <> 0 -> s_index b <> 0 ->
  sh_offset a + csize a <= sh_offset b.
Proof.
  induction l as [|x t IH]; intros lo hi pre a mid b post H E Ha Hb; [destruct pre; discriminate|].
  cbn [chain] in H. destruct pre as [|p pre']; cbn [app] in E; injection E as -> ->.
  - destruct (N.eqb_spec (s_index a) 0); [contradiction|]. destruct H as (_ & _ & H3).
    destruct (chain_member _ _ _ b H3 ltac:(apply in_or_app; right; now left) Hb) as (A & _). exact A.
  - destruct (s_index p =? 0).
    + destruct H as (lo' & _ & H2). eapply IH; eauto.
    + destruct H as (_ & _ & H3). eapply IH; eauto.
Qed.

Lemma with_offset_idem s v : with_offset (with_offset s v) v = with_offset s v.
Proof. reflexivity. Qed.

Theorem lfs_idempotent : forall todo pre pos todo' pos',
  layout_free_sections [] (pre ++ todo) (lenN pre) todo pos = (pre ++ todo', pos') ->
  layout_free_sections [] (pre ++ todo') (lenN pre) todo' pos = (pre ++ todo', pos').
Proof.
  intros todo pre pos todo' pos' H. rewrite lfs_unfold in H. injection H as H1 H2. apply app_inv_head in H1.
  rewrite lfs_unfold, <- H1, lfs_local_again, H1, H2. reflexivity.
Qed.

Definition layout_pos0 (h : ehdr) : N := e_ehsize h.

Definition hdr_prep (h : ehdr) (nsec : N) : ehdr :=
  hdr_set (hdr_set (hdr_set (hdr_set h HPhnum 0) HPhoff 0) HShnum nsec) HShoff 0.
Lemma hdr_prep_idem h nsec p : hdr_prep (hdr_set (hdr_prep h nsec) HShoff p) nsec = hdr_prep h nsec.
Proof. destruct h; reflexivity. Qed.


Theorem layout_noseg el h0 bound :
  el_hdr el = Some h0 -> el_segs el = [] ->
  bound <= 2 ^ 64 -> Forall (fun s => bound <= 2 ^ xw (s_cls s)) (el_secs el) ->
  e_ehsize h0 + budget (el_secs el) + 16 < bound ->
  exists el' secs' h' pos',
    layout el = Ok (el', true) /\ el_secs el' = secs' /\ el_segs el' = [] /\ el_hdr el' = Some h' /\
    Forall2 keeps (el_secs el) secs' /\ chain secs' (e_ehsize h0) pos' /\
    h' = hdr_set (hdr_prep h0 (wrap16 (lenN (el_secs el)))) HShoff (pos' + (16 - pos' mod 16)) /\
    pos' <= e_ehsize h0 + budget (el_secs el) /\
    layout el' = Ok (el', true).
Proof.
  intros Hh Hs Hb Hc Hbud. unfold layout at 1. rewrite Hh, Hs.
  cbn [lenN map_res bind]. change (wrap16 0) with 0. cbn [N.ltb N.compare].
  change (get_ordered_segments []) with (@Ok (list N) []). cbn [bind layout_segments].
  set (nsec := wrap16 (lenN (el_secs el))).
  fold (hdr_prep h0 nsec). set (h4 := hdr_prep h0 nsec).
  assert (E4 : e_ehsize h4 = e_ehsize h0 /\ e_phnum h4 = 0 /\ e_phentsize h4 = e_phentsize h0) by (repeat split).
  destruct E4 as (E4a & E4b & E4c).
  assert (P0 : add64 (e_ehsize h4) (wrap64 (e_phentsize h4 * e_phnum h4)) = e_ehsize h0).
  { rewrite E4a, E4b, N.mul_0_r. change (wrap64 0) with 0. rewrite add64_id by lia. lia. }
  rewrite P0.
  pose proof (lfs_unfold [] (el_secs el) [] (e_ehsize h0)) as E. cbn [app lenN] in E.
  destruct (lfs_local_spec bound (sec_without_segment []) (el_secs el) 0 (e_ehsize h0) Hb Hc ltac:(lia)) as (K & Ch & Le).
  rewrite pick_all in Ch by reflexivity.
  set (secs' := fst (lfs_local (sec_without_segment []) 0 (el_secs el) (e_ehsize h0))) in *.
  set (pos' := snd (lfs_local (sec_without_segment []) 0 (el_secs el) (e_ehsize h0))) in *.
  rewrite E.
  assert (P3 : add64 pos' (16 - pos' mod 16) = pos' + (16 - pos' mod 16)).
  { apply add64_id. assert (pos' mod 16 < 16) by (apply N.mod_lt; lia). lia. }
  rewrite P3. set (pos3 := pos' + (16 - pos' mod 16)).
  eexists _, secs', _, pos'. split; [reflexivity|]. cbn [el_secs el_segs el_hdr].
  do 3 (split; [reflexivity|]). split; [exact K|]. split; [exact Ch|]. split; [reflexivity|]. split; [exact Le|].
  unfold layout. cbn [el_hdr el_segs el_secs el_xlat el_compr el_stream lenN map_res bind].
  change (wrap16 0) with 0. cbn [N.ltb N.compare].
  change (get_ordered_segments []) with (@Ok (list N) []). cbn [bind layout_segments].
  rewrite (Forall2_lenN _ _ _ K). fold nsec.
  fold (hdr_prep (hdr_set h4 HShoff pos3) nsec). unfold h4. rewrite hdr_prep_idem. fold h4.
  rewrite P0.
  pose proof (lfs_idempotent (el_secs el) [] (e_ehsize h0) secs' pos' E) as E2. cbn [app lenN] in E2. rewrite E2.
  rewrite P3. reflexivity.
Qed.
