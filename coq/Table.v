(* Table.v — fixed-layout records and tables of them.
   A record layout is a list of field widths (bytes); [enc_fields]/[dec_fields]
   are the gABI encoding in a given byte order.  A table is the concatenation of
   equally sized encoded entries; entry j sits at offset j * entry size. *)
From ElfioV Require Import Bytes Mem SectionData SectionData_proofs.
Local Open Scope N_scope.

Fixpoint enc_fields (e : endian) (ws : list nat) (vs : list N) : bytes :=
  match ws, vs with
  | w :: ws', v :: vs' => enc_uint e w v ++ enc_fields e ws' vs'
  | _, _ => []
  end.

Fixpoint dec_fields (e : endian) (ws : list nat) (bs : bytes) : list N :=
  match ws with
  | [] => []
  | w :: ws' => dec_uint e (firstnN bs (N.of_nat w)) :: dec_fields e ws' (skipnN bs (N.of_nat w))
  end.

Fixpoint trunc_fields (ws : list nat) (vs : list N) : list N :=
  match ws, vs with
  | w :: ws', v :: vs' => (v mod 256 ^ N.of_nat w) :: trunc_fields ws' vs'
  | _, _ => []
  end.

Definition layout_size (ws : list nat) : N := N.of_nat (fold_right Nat.add 0%nat ws).

Lemma lenN_enc_fields e ws vs : length vs = length ws -> lenN (enc_fields e ws vs) = layout_size ws.
Proof.
  revert vs; induction ws as [|w ws IH]; intros [|v vs] H; cbn [enc_fields]; try discriminate; [reflexivity|].
  cbn in H. rewrite lenN_app, lenN_enc_uint, IH by lia. unfold layout_size. cbn [fold_right]. lia.
Qed.

Lemma dec_enc_fields e ws vs : length vs = length ws ->
  dec_fields e ws (enc_fields e ws vs) = trunc_fields ws vs.
Proof.
  revert vs; induction ws as [|w ws IH]; intros [|v vs] H; cbn [enc_fields dec_fields trunc_fields];
    try discriminate; [reflexivity|].
  cbn in H. rewrite firstnN_app_exact by apply lenN_enc_uint.
  rewrite skipnN_app_exact by apply lenN_enc_uint.
  rewrite dec_enc_uint, IH by lia. reflexivity.
Qed.

Lemma dec_enc_fields_fit e ws vs : Forall2 (fun w v => v < 256 ^ N.of_nat w) ws vs ->
  dec_fields e ws (enc_fields e ws vs) = vs.
Proof.
  induction 1 as [|w v ws vs Hv _ IH]; cbn [enc_fields dec_fields]; [reflexivity|].
  rewrite firstnN_app_exact, skipnN_app_exact by apply lenN_enc_uint.
  now rewrite dec_enc_uint_small, IH.
Qed.

Fixpoint fields_before (ws : list nat) (k : nat) : N :=
  match k, ws with
  | S k', w :: ws' => N.of_nat w + fields_before ws' k'
  | _, _ => 0
  end.

Lemma rd_word_field e {ws vs} k {b post : bytes} {off w v} :
  skipnN b off = enc_fields e ws vs ++ post -> nth_error ws k = Some w -> nth_error vs k = Some v ->
  v < 256 ^ N.of_nat w ->
  rd_word e (Some b) (off + fields_before ws k) w = Ok v.
Proof.
  revert vs k post off; induction ws as [|w0 ws IH]; intros vs k post off Hb Hw Hv Hlt; [destruct k; discriminate|].
  destruct vs as [|v0 vs]; [destruct k; discriminate|]. cbn [enc_fields] in Hb. rewrite <- app_assoc in Hb.
  destruct k as [|k]; cbn [nth_error fields_before] in *.
  - injection Hw as <-. injection Hv as <-. rewrite N.add_0_r. exact (rd_word_at e b _ off w0 v0 Hb Hlt).
  - apply skipnN_after in Hb. rewrite lenN_enc_uint in Hb. rewrite N.add_assoc. exact (IH vs k post _ Hb Hw Hv Hlt).
Qed.

Lemma enc_fields_is_bytes e ws vs : is_bytes (enc_fields e ws vs).
Proof.
  revert vs; induction ws as [|w ws IH]; intros [|v vs]; cbn [enc_fields]; try constructor.
  apply Forall_app; split; [apply enc_uint_is_bytes|apply IH].
Qed.

Lemma dec_fields_app e ws bs rest : layout_size ws <= lenN bs ->
  dec_fields e ws (bs ++ rest) = dec_fields e ws bs.
Proof.
  revert bs; induction ws as [|w ws IH]; intros bs H; cbn [dec_fields]; [reflexivity|].
  unfold layout_size in H. cbn [fold_right] in H.
  rewrite firstnN_app_le by lia. rewrite skipnN_app_le by lia.
  rewrite IH; [reflexivity|]. rewrite lenN_skipnN. unfold layout_size. lia.
Qed.

Lemma nth_optN_app_new {E} (es : list E) x : nth_optN (es ++ [x]) (lenN es) = Some x.
Proof. apply nth_optN_mid. Qed.

Lemma nth_optN_app_old {E} (es : list E) x j y : nth_optN es j = Some y -> nth_optN (es ++ [x]) j = Some y.
Proof.
  revert j; induction es as [|z t IH]; intros j; cbn [app nth_optN]; [discriminate|].
  destruct (N.eqb_spec j 0); [tauto|]. apply IH.
Qed.

Lemma nth_optN_ge {E} (es : list E) j : lenN es <= j -> nth_optN es j = None.
Proof. rewrite nth_optN_nth_error, lenN_length. intros H. apply nth_error_None. lia. Qed.

Section AppendAll.
  Variable junk : N -> N.
  Variable xe : bool.

  Fixpoint append_all (s : section) (chunks : list bytes) : res section :=
    match chunks with
    | [] => Ok s
    | c :: t => s1 <- append_data junk xe s c ;; append_all s1 t
    end.

  Lemma append_all_spec s chunks :
    Inv s -> sh_size s + lenN (concat chunks) < size_bound (s_cls s) ->
    exists s', append_all s chunks = Ok s' /\
      edited s s' (contents s ++ concat chunks) (sh_size s + lenN (concat chunks)).
  Proof.
    revert s; induction chunks as [|c t IH]; intros s HI Hb; cbn [append_all concat] in *.
    - exists s. unfold edited. rewrite app_nil_r, N.add_0_r. auto 10.
    - rewrite lenN_app in *.
      destruct (append_data_exact junk xe s c HI ltac:(lia)) as (s1 & -> & I1 & C1 & K1 & T1 & S1).
      cbn [bind]. unfold edited. rewrite app_assoc, N.add_assoc, <- C1, <- K1, <- T1, <- S1.
      apply IH; [exact I1|]. rewrite K1, S1. lia.
  Qed.
End AppendAll.

(* byte offsets of entries are not truncated by the 64-bit multiplication *)
Lemma entry_off64 n esz j : n * esz < 2 ^ 64 -> j < n -> wrap64 (j * esz) = j * esz.
Proof. intros H Hj. apply wrap_small. nia. Qed.

Section TableLemmas.
  Context {E : Type}.
  Variable enc : E -> bytes.
  Variable esz : N.
  Hypothesis enc_len : forall x, lenN (enc x) = esz.

  Lemma lenN_concat_enc es : lenN (concat (map enc es)) = lenN es * esz.
  Proof.
    induction es as [|x t IH]; cbn [map concat]; [reflexivity|].
    rewrite lenN_app, enc_len, IH, lenN_cons. lia.
  Qed.

  Lemma concat_map_app_one es x : concat (map enc (es ++ [x])) = concat (map enc es) ++ enc x.
  Proof. rewrite map_app, concat_app. cbn [map concat]. now rewrite app_nil_r. Qed.

  Lemma concat_enc_split l1 x l2 :
    concat (map enc (l1 ++ x :: l2)) = concat (map enc l1) ++ enc x ++ concat (map enc l2).
  Proof. rewrite map_app, concat_app. reflexivity. Qed.

  Lemma slice_concat_enc es j x :
    nth_optN es j = Some x -> sliceN (concat (map enc es)) (j * esz) esz = enc x.
  Proof.
    intros Hn. destruct (updN_split es j x x Hn) as (l1 & l2 & -> & <- & _).
    rewrite concat_enc_split, <- (lenN_concat_enc l1), <- (enc_len x).
    unfold sliceN. rewrite (skipnN_app_exact _ _ _ eq_refl). now apply firstnN_app_exact.
  Qed.

  Definition holds_table (s : section) (es : list E) : Prop := Inv s /\ contents s = concat (map enc es).

  Lemma table_size {s es} : holds_table s es -> sh_size s = lenN es * esz.
  Proof. intros [HI HC]. rewrite <- (lenN_contents s HI), HC. apply lenN_concat_enc. Qed.

  Lemma table_num {s es} : holds_table s es -> 0 < esz -> sh_size s / esz = lenN es.
  Proof. intros H Hp. rewrite (table_size H). apply N.div_mul. lia. Qed.

  Lemma table_off64 {s es j} : holds_table s es -> sh_size s < 2 ^ 64 -> j < lenN es -> wrap64 (j * esz) = j * esz.
  Proof. intros H H64 Hj. rewrite (table_size H) in H64. exact (entry_off64 _ _ _ H64 Hj). Qed.

  Definition tbl (es : list E) (tl : bytes) : bytes := concat (map enc es) ++ tl.

  Lemma lenN_tbl es tl : lenN (tbl es tl) = lenN es * esz + lenN tl.
  Proof. unfold tbl. now rewrite lenN_app, lenN_concat_enc. Qed.

  Lemma rd_entry es tl j x : nth_optN es j = Some x -> rd (Some (tbl es tl)) (j * esz) esz = Ok (enc x).
  Proof.
    intros H. destruct (updN_split es j x x H) as (l1 & l2 & -> & <- & _). unfold tbl.
    rewrite concat_enc_split, <- !app_assoc, <- (lenN_concat_enc l1), <- (enc_len x). apply rd_mid.
  Qed.

  Lemma wr_entry es tl j x y : nth_optN es j = Some x ->
    wr (Some (tbl es tl)) (j * esz) (enc y) = Ok (Some (tbl (updN es j y) tl)).
  Proof.
    intros H. destruct (updN_split es j x y H) as (l1 & l2 & -> & <- & ->). unfold tbl.
    rewrite !concat_enc_split, <- !app_assoc, <- (lenN_concat_enc l1). apply wr_mid. now rewrite !enc_len.
  Qed.

  Lemma table_data_some {s es j x} : holds_table s es -> nth_optN es j = Some x -> 0 < esz ->
    exists tl, s_data s = Some (tbl es tl).
  Proof.
    intros H Hn Hp. pose proof (table_size H) as HL. pose proof (nth_optN_lt _ _ _ Hn) as Hj.
    unfold tbl. destruct H as [HI <-]. pose proof (contents_split s) as Es.
    destruct HI as (_ & _ & HD). destruct (s_data s) as [b|]; [exists (skipnN b (sh_size s)); f_equal; exact Es|].
    destruct HD as [H0 _]. nia.
  Qed.

  (* the accessors test the data pointer before they use it *)
  Lemma table_resident {s es j x} : holds_table s es -> nth_optN es j = Some x -> 0 < esz ->
    forall (A : Type) (a b : A), match s_data s with Some _ => a | None => b end = a.
  Proof. intros H Hn Hp A a b. destruct (table_data_some H Hn Hp) as [tl ->]. reflexivity. Qed.

  Lemma table_read {s es j x} : holds_table s es -> 0 < esz -> nth_optN es j = Some x ->
    rd (s_data s) (j * esz) esz = Ok (enc x).
  Proof. intros H Hp Hn. destruct (table_data_some H Hn Hp) as [tl ->]. now apply rd_entry. Qed.

  Lemma table_read64 {s es j x} :
    holds_table s es -> 0 < esz -> sh_size s < 2 ^ 64 -> nth_optN es j = Some x ->
    rd (s_data s) (wrap64 (j * esz)) esz = Ok (enc x).
  Proof.
    intros H Hp H64 Hn. rewrite (table_off64 H H64 (nth_optN_lt _ _ _ Hn)). exact (table_read H Hp Hn).
  Qed.

  Lemma table_write {s es j x} y : holds_table s es -> 0 < esz -> nth_optN es j = Some x ->
    exists b', wr (s_data s) (j * esz) (enc y) = Ok (Some b') /\
      holds_table (with_data s (Some b') (s_data_size s)) (updN es j y).
  Proof.
    intros H Hp Hn. destruct (table_data_some H Hn Hp) as [tl Eb].
    pose proof (table_size H) as HS. destruct H as [HI _].
    rewrite Eb, (wr_entry es tl j x y Hn). eexists. split; [reflexivity|]. split.
    - apply Inv_iff in HI. apply Inv_iff. rewrite Eb in HI. cbn [with_data sh_type s_data_size sh_size s_data pbuf] in *.
      rewrite lenN_tbl in *. now rewrite lenN_updN.
    - rewrite contents_pbuf. cbn [with_data s_data sh_size pbuf]. apply firstnN_app_exact.
      now rewrite lenN_concat_enc, lenN_updN.
  Qed.

  Lemma append_all_table junk xe s es :
    Inv s -> sh_size s = 0 -> lenN es * esz < size_bound (s_cls s) ->
    exists s', append_all junk xe s (map enc es) = Ok s' /\ Inv s' /\
      contents s' = concat (map enc es) /\
      sh_size s' = lenN es * esz /\ sh_type s' = sh_type s /\ s_cls s' = s_cls s.
  Proof.
    intros HI H0 HB.
    destruct (append_all_spec junk xe s (map enc es) HI) as (s' & E' & I' & C' & K' & T' & S'); [rewrite lenN_concat_enc; lia|].
    rewrite (lenN_0 (contents s)) in C' by (rewrite (lenN_contents s HI); exact H0).
    rewrite H0, lenN_concat_enc in S'. exists s'. auto 10.
  Qed.
End TableLemmas.
