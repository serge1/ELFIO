(* Ostream_proofs.v — the output stream's piece list refines a flat byte
   string: a write replaces exactly the bytes of its range, padding adds zeros. *)
From ElfioV Require Import Bytes Stream Stream_proofs.
Local Open Scope N_scope.

(* sorted, disjoint, inside [cur, len), lengths recorded correctly *)
Fixpoint pieces_ok (ps : list piece) (cur len : N) : Prop :=
  match ps with
  | [] => True
  | (o, l, d) :: rest => cur <= o /\ l = lenN d /\ 0 < l /\ o + l <= len /\ pieces_ok rest (o + l) len
  end.

Fixpoint covered (ps : list piece) (i : N) : bool :=
  match ps with
  | [] => false
  | (o, l, d) :: rest => ((o <=? i) && (i <? o + l)) || covered rest i
  end.

Fixpoint byte_at (ps : list piece) (i : N) : N :=
  match ps with
  | [] => 0
  | (o, l, d) :: rest => if (o <=? i) && (i <? o + l) then nthN d (i - o) 0 else byte_at rest i
  end.

Lemma pieces_ok_weaken ps cur cur' len len' : cur' <= cur -> len <= len' -> pieces_ok ps cur len -> pieces_ok ps cur' len'.
Proof.
  revert cur cur'; induction ps as [|[[o l] d] rest IH]; intros cur cur' Hc Hl H; cbn [pieces_ok] in *; [exact I|].
  destruct H as (H1 & H2 & H3 & H4 & H5). repeat split; try lia. eapply IH; [| |exact H5]; lia.
Qed.

Lemma byte_at_outside ps : forall cur len i, pieces_ok ps cur len -> i < cur \/ len <= i -> byte_at ps i = 0.
Proof.
  induction ps as [|[[o l] d] rest IH]; intros cur len i H Hi; cbn [byte_at pieces_ok] in *; [reflexivity|].
  destruct H as (H1 & H2 & H3 & H4 & H5).
  destruct (N.leb_spec o i); destruct (N.ltb_spec i (o + l)); cbn [andb]; try lia; apply (IH _ _ _ H5); lia.
Qed.

Lemma byte_at_app a b mid : forall cur len i, pieces_ok a cur mid -> pieces_ok b mid len ->
  byte_at (a ++ b) i = if i <? mid then byte_at a i else byte_at b i.
Proof.
  induction a as [|[[o l] d] rest IH]; intros cur len i Ha Hb; cbn [app byte_at pieces_ok] in *.
  - destruct (N.ltb_spec i mid); [|reflexivity]. apply (byte_at_outside _ _ _ _ Hb). now left.
  - destruct Ha as (H1 & H2 & H3 & H4 & H5). rewrite (IH _ _ i H5 Hb).
    destruct (N.leb_spec o i); destruct (N.ltb_spec i (o + l)); destruct (N.ltb_spec i mid); cbn [andb]; try reflexivity; lia.
Qed.

Lemma covered_app a b i : covered (a ++ b) i = covered a i || covered b i.
Proof.
  induction a as [|[[o l] d] rest IH]; cbn [app covered]; [reflexivity|]. rewrite IH. now rewrite orb_assoc.
Qed.

Lemma lenN_render ps : forall cur len, pieces_ok ps cur len -> cur <= len -> lenN (render ps cur len) = len - cur.
Proof.
  induction ps as [|[[o l] d] rest IH]; intros cur len H Hc; cbn [render pieces_ok] in *.
  - apply lenN_repeatN.
  - destruct H as (H1 & H2 & H3 & H4 & H5). destruct (N.leb_spec len o); [lia|].
    rewrite !lenN_app, lenN_repeatN, lenN_firstnN, (IH _ _ H5) by lia. lia.
Qed.


Lemma nthN_render ps : forall cur len k, pieces_ok ps cur len -> cur <= len -> k < len - cur ->
  nthN (render ps cur len) k 0 = byte_at ps (cur + k).
Proof.
  induction ps as [|[[o l] d] rest IH]; intros cur len k H Hc Hk; cbn [render pieces_ok byte_at] in *.
  - now apply nthN_repeatN.
  - destruct H as (H1 & H2 & H3 & H4 & H5). destruct (N.leb_spec len o); [lia|].
    destruct (N.ltb_spec (cur + k) o) as [Hb|Hb].
    + rewrite nthN_app_lt by (rewrite lenN_repeatN; lia). rewrite nthN_repeatN by lia.
      destruct (N.leb_spec o (cur + k)); [lia|]. cbn [andb].
      symmetry. apply (byte_at_outside _ _ _ _ H5). lia.
    + rewrite nthN_app_ge by (rewrite lenN_repeatN; lia). rewrite lenN_repeatN.
      destruct (N.leb_spec o (cur + k)); [|lia]. cbn [andb].
      destruct (N.ltb_spec (cur + k) (o + l)) as [Hin|Hout].
      * rewrite nthN_app_lt by (rewrite lenN_firstnN; lia). rewrite nthN_firstnN by lia. f_equal. lia.
      * rewrite nthN_app_ge by (rewrite lenN_firstnN; lia). rewrite lenN_firstnN.
        replace (N.min (len - o) (lenN d)) with l by lia.
        rewrite (IH (o + l) len) by (try assumption; lia). f_equal. lia.
Qed.

Definition stream_ok (s : ostream) : Prop := pieces_ok (os_pieces s) 0 (os_len s).

Lemma lenN_os_bytes s : stream_ok s -> lenN (os_bytes s) = os_len s.
Proof. intros H. unfold os_bytes. rewrite (lenN_render _ 0 _ H) by lia. lia. Qed.

Lemma os_byte s i : stream_ok s -> nthN (os_bytes s) i 0 = byte_at (os_pieces s) i.
Proof.
  intros H. destruct (N.lt_ge_cases i (os_len s)) as [Hi|Hi].
  - unfold os_bytes. rewrite (nthN_render _ 0 _ i H) by lia. reflexivity.
  - rewrite nthN_beyond by (rewrite lenN_os_bytes; assumption).
    symmetry. apply (byte_at_outside _ _ _ _ H). now right.
Qed.

Lemma pieces_ok_app a b cur mid len :
  pieces_ok a cur mid -> pieces_ok b mid len -> cur <= mid -> mid <= len -> pieces_ok (a ++ b) cur len.
Proof.
  revert cur; induction a as [|[[o l] d] rest IH]; intros cur Ha Hb Hc Hm; cbn [app pieces_ok] in *.
  - eapply pieces_ok_weaken; [| |exact Hb]; lia.
  - destruct Ha as (H1 & H2 & H3 & H4 & H5). repeat split; try lia. apply IH; auto.
Qed.

Lemma cut_before_spec pos ps : forall cur len, pieces_ok ps cur len ->
  pieces_ok (cut_before pos ps) cur pos /\ forall i, i < pos -> byte_at (cut_before pos ps) i = byte_at ps i.
Proof.
  induction ps as [|[[o l] d] rest IH]; intros cur len H; cbn [cut_before pieces_ok] in *; [auto|].
  destruct H as (H1 & H2 & H3 & H4 & H5). destruct (N.leb_spec (o + l) pos).
  - destruct (IH _ _ H5) as [IH1 IH2]. cbn [pieces_ok byte_at]. split; [repeat split; try lia; exact IH1|].
    intros i Hi. now rewrite IH2.
  - assert (Hr : forall i, i < pos -> byte_at rest i = 0) by (intros i Hi; apply (byte_at_outside _ _ _ _ H5); lia).
    destruct (N.ltb_spec o pos); cbn [pieces_ok byte_at].
    + rewrite lenN_firstnN. split; [repeat split; lia|]. intros i Hi. rewrite Hr by exact Hi.
      destruct (N.leb_spec o i); cbn [andb]; [|reflexivity].
      destruct (N.ltb_spec i (o + (pos - o))); destruct (N.ltb_spec i (o + l)); try lia. apply nthN_firstnN. lia.
    + split; [exact I|]. intros i Hi. rewrite Hr by exact Hi. destruct (N.leb_spec o i); [lia|reflexivity].
Qed.

Lemma cut_after_spec e ps : forall cur len, pieces_ok ps cur len ->
  pieces_ok (cut_after e ps) (N.max cur e) len /\ forall i, e <= i -> byte_at (cut_after e ps) i = byte_at ps i.
Proof.
  induction ps as [|[[o l] d] rest IH]; intros cur len H; cbn [cut_after pieces_ok] in *; [auto|].
  destruct H as (H1 & H2 & H3 & H4 & H5). destruct (N.leb_spec (o + l) e).
  - destruct (IH _ _ H5) as [IH1 IH2]. split; [eapply pieces_ok_weaken; [| |exact IH1]; lia|].
    intros i Hi. rewrite IH2 by exact Hi. cbn [byte_at]. destruct (N.ltb_spec i (o + l)); [lia|]. now rewrite andb_false_r.
  - destruct (N.ltb_spec o e); cbn [pieces_ok byte_at]; [|split; [repeat split; try lia; exact H5|reflexivity]].
    rewrite lenN_skipnN. replace (e + (o + l - e)) with (o + l) by lia. split; [repeat split; try lia; exact H5|].
    intros i Hi. destruct (N.leb_spec e i); [|lia]. destruct (N.leb_spec o i); [|lia]. cbn [andb].
    destruct (N.ltb_spec i (o + l)); [|reflexivity]. rewrite nthN_skipnN. f_equal. lia.
Qed.

Lemma empty_range p i : (p <=? i) && (i <? p) = false.
Proof. destruct (N.leb_spec p i); destruct (N.ltb_spec i p); try reflexivity; lia. Qed.

Lemma put_piece_spec pos bs ps len : pieces_ok ps 0 len ->
  pieces_ok (put_piece pos bs ps) 0 (N.max len (pos + lenN bs)) /\
  forall i, byte_at (put_piece pos bs ps) i =
            if (pos <=? i) && (i <? pos + lenN bs) then nthN bs (i - pos) 0 else byte_at ps i.
Proof.
  intros H. unfold put_piece. destruct (N.eqb_spec (lenN bs) 0) as [E|E].
  - rewrite E, N.add_0_r. split; [eapply pieces_ok_weaken; [| |exact H]; lia|]. intro i. now rewrite empty_range.
  - cbn [app]. destruct (cut_before_spec pos ps 0 len H) as [B1 B2]. destruct (cut_after_spec (pos + lenN bs) ps 0 len H) as [A1 A2].
    assert (M : pieces_ok ((pos, lenN bs, bs) :: cut_after (pos + lenN bs) ps) pos (N.max len (pos + lenN bs))).
    { cbn [pieces_ok]. repeat split; try lia. eapply pieces_ok_weaken; [| |exact A1]; lia. }
    split; [apply pieces_ok_app with (mid := pos); [exact B1|exact M|lia|lia]|].
    intro i. rewrite (byte_at_app _ _ pos 0 _ i B1 M). cbn [byte_at]. destruct (N.ltb_spec i pos) as [Hi|Hi].
    + rewrite B2 by exact Hi. destruct (N.leb_spec pos i); [lia|reflexivity].
    + destruct (N.leb_spec pos i); [|lia]. cbn [andb]. destruct (N.ltb_spec i (pos + lenN bs)); [reflexivity|]. apply A2. lia.
Qed.

Definition good (s : ostream) : Prop := os_bad s = false /\ os_abort s = false /\ os_cap s = None.

Lemma good_room s len : good s -> room s len.
Proof. intros (_ & _ & Hc). unfold room. now rewrite Hc. Qed.

Definition flat (s : ostream) (len : N) (f : N -> N) : Prop :=
  stream_ok s /\ good s /\ os_len s = len /\ forall i, nthN (os_bytes s) i 0 = f i.

Theorem write_flat s len f bs : flat s len f ->
  flat (write s bs) (if lenN bs =? 0 then len else N.max len (os_pos s + lenN bs))
       (fun i => if (os_pos s <=? i) && (i <? os_pos s + lenN bs) then nthN bs (i - os_pos s) 0 else f i).
Proof.
  intros (Hok & Hg & <- & Hf). pose proof Hg as (Hb & Ha & Hc). destruct (N.eqb_spec (lenN bs) 0) as [E|E].
  - rewrite write_empty by exact E. split; [exact Hok|]. split; [exact Hg|]. split; [reflexivity|]. intro i.
    rewrite E, N.add_0_r, empty_range. apply Hf.
  - rewrite write_room by (try assumption; now apply good_room). rewrite Hc.
    destruct (put_piece_spec (os_pos s) bs (os_pieces s) (os_len s) Hok) as [P1 P2].
    match goal with |- flat ?x _ _ => pose proof (P1 : stream_ok x) as Hok' end.
    split; [exact Hok'|]. split; [repeat split|]. split; [reflexivity|]. intro i.
    rewrite (os_byte _ i Hok'), <- Hf, (os_byte s i Hok). apply P2.
Qed.

Theorem adjust_flat s len f off : flat s len f -> off < len + 2147483648 ->
  flat (adjust_stream_size s off) (N.max len off) f /\ os_pos (adjust_stream_size s off) = off.
Proof.
  intros (Hok & Hg & <- & Hf) Hoff. pose proof Hg as (Hb & Ha & Hc).
  rewrite adjust_room by (try assumption; now apply good_room). rewrite Hc. split; [|reflexivity].
  match goal with |- flat ?x _ _ => assert (Hok' : stream_ok x) end.
  { unfold stream_ok in *. cbn. eapply pieces_ok_weaken; [| |exact Hok]; lia. }
  split; [exact Hok'|]. split; [repeat split|]. split; [reflexivity|].
  intro i. rewrite (os_byte _ i Hok'), <- Hf, (os_byte s i Hok). reflexivity.
Qed.

Definition in_range (w : N * bytes) (i : N) : bool := (fst w <=? i) && (i <? fst w + lenN (snd w)).
Definition plan_step (f : N -> N) (w : N * bytes) : N -> N :=
  fun i => if in_range w i then nthN (snd w) (i - fst w) 0 else f i.
Definition plan_bytes (p : list (N * bytes)) (base : N -> N) : N -> N := fold_left plan_step p base.
Definition plan_len (p : list (N * bytes)) (len0 : N) : N :=
  fold_left (fun l w => N.max l (fst w + lenN (snd w))) p len0.

Fixpoint plan_small (len : N) (p : list (N * bytes)) : Prop :=
  match p with
  | [] => True
  | w :: t => fst w < len + 2147483648 /\ plan_small (N.max len (fst w + lenN (snd w))) t
  end.

Lemma exec_write_flat s len f w : flat s len f -> fst w < len + 2147483648 ->
  flat (exec_write s w) (N.max len (fst w + lenN (snd w))) (plan_step f w).
Proof.
  intros F Hs. destruct (adjust_flat s len f (fst w) F Hs) as [F1 P1].
  pose proof (write_flat _ _ _ (snd w) F1) as F2. rewrite P1 in F2.
  replace (N.max len (fst w + lenN (snd w)))
    with (if lenN (snd w) =? 0 then N.max len (fst w) else N.max (N.max len (fst w)) (fst w + lenN (snd w))); [exact F2|].
  destruct (N.eqb_spec (lenN (snd w)) 0) as [E|E]; [rewrite E|]; lia.
Qed.

Theorem exec_plan_flat p : forall s len f,
  flat s len f -> plan_small len p -> flat (exec_plan s p) (plan_len p len) (plan_bytes p f).
Proof.
  induction p as [|w t IH]; intros s len f F Hp; [exact F|]. destruct Hp as [Hw Ht].
  exact (IH _ _ _ (exec_write_flat s len f w F Hw) Ht).
Qed.

Lemma plan_len_le p : forall l, l <= plan_len p l.
Proof.
  unfold plan_len. induction p as [|w t IH]; intro l; cbn [fold_left]; [apply N.le_refl|].
  eapply N.le_trans; [apply N.le_max_l|apply IH].
Qed.

Lemma plan_bytes_untouched p : forall base i, (forall w, In w p -> in_range w i = false) -> plan_bytes p base i = base i.
Proof.
  induction p as [|w t IH]; intros base i H; cbn [plan_bytes fold_left]; [reflexivity|].
  fold (plan_bytes t (plan_step base w)). rewrite IH by (intros; apply H; now right).
  unfold plan_step. now rewrite (H w (or_introl eq_refl)).
Qed.

Theorem plan_write_visible before w after base i :
  in_range w i = true -> (forall w', In w' after -> in_range w' i = false) ->
  plan_bytes (before ++ w :: after) base i = nthN (snd w) (i - fst w) 0.
Proof.
  intros Hin Haft. unfold plan_bytes. rewrite fold_left_app. cbn [fold_left].
  fold (plan_bytes after (plan_step (fold_left plan_step before base) w)).
  rewrite plan_bytes_untouched by exact Haft. unfold plan_step. now rewrite Hin.
Qed.

Lemma new_ostream_flat : flat (new_ostream None) 0 (fun _ => 0).
Proof. split; [exact I|]. split; [repeat split|]. split; reflexivity. Qed.



Theorem plan_slice_visible s before (w : N * bytes) after :
  stream_ok s -> good s -> plan_small (os_len s) (before ++ w :: after) ->
  (forall w' i, In w' after -> in_range w i = true -> in_range w' i = false) ->
  sliceN (os_bytes (exec_plan s (before ++ w :: after))) (fst w) (lenN (snd w)) = snd w.
Proof.
  intros Hok Hg Hp Hdis.
  destruct (exec_plan_flat (before ++ w :: after) s _ _ (conj Hok (conj Hg (conj eq_refl (fun i => eq_refl)))) Hp) as (Ok' & _ & L' & B').
  assert (Hlen : fst w + lenN (snd w) <= lenN (os_bytes (exec_plan s (before ++ w :: after)))).
  { rewrite (lenN_os_bytes _ Ok'), L'. unfold plan_len. rewrite fold_left_app. cbn [fold_left].
    eapply N.le_trans; [apply N.le_max_r|apply plan_len_le]. }
  assert (Hin : forall i, i < lenN (snd w) -> in_range w (fst w + i) = true).
  { intros i Hi. unfold in_range. apply andb_true_iff. split; [apply N.leb_le|apply N.ltb_lt]; lia. }
  apply nthN_ext; rewrite lenN_sliceN_in by exact Hlen; [reflexivity|].
  intros i Hi. rewrite nthN_sliceN, B', plan_write_visible by auto.
  f_equal. lia.
Qed.

Lemma plan_small_no_huge p : forall s len f, flat s len f -> plan_small len p -> plan_no_huge s p.
Proof.
  induction p as [|w t IH]; intros s len f F Hp; cbn [plan_no_huge]; [exact I|].
  destruct Hp as [Hw Ht]. split; [|exact (IH _ _ _ (exec_write_flat s len f w F Hw) Ht)].
  destruct F as (_ & _ & <- & _). exact Hw.
Qed.
