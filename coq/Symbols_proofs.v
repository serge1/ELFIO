(* Symbols_proofs.v — C09: symbol entries round-trip with the ABI layout; the
   hash functions equal their ABI definitions. *)
From ElfioV Require Import Bytes Mem SectionData SectionData_proofs Elfio Table Accessors Elfio_proofs.
Local Open Scope N_scope.


Lemma enc_sym_len c e y : lenN (enc_sym c e y) = layout_size (sym_layout c).
Proof. destruct c; cbn [enc_sym]; apply lenN_enc_fields; reflexivity. Qed.

Definition sym_esz (c : cls) : N := layout_size (sym_layout c).
Lemma sym_esz_val c : sym_esz c = match c with C32 => 16 | C64 => 24 end.
Proof. destruct c; reflexivity. Qed.
Lemma sym_esz_pos c : 0 < sym_esz c.
Proof. destruct c; reflexivity. Qed.

Lemma dec_enc_sym c e y : dec_sym c e (enc_sym c e y) = trunc_sym c y.
Proof. destruct c; unfold dec_sym, enc_sym; rewrite dec_enc_fields by reflexivity; reflexivity. Qed.

Lemma trunc_sym_idem c y : trunc_sym c (trunc_sym c y) = trunc_sym c y.
Proof. unfold trunc_sym; cbn [st_name st_value st_size st_info st_other st_shndx]; unfold wrap32, wrap16, wrap8; now rewrite !wrap_wrap. Qed.

(* the bytes of a table holding ys, each entry truncated to the field widths as add_symbol stores it
   (a table built by add_symbol starts with the null symbol: sym_adds_table) *)
Definition sym_table (c : cls) (e : endian) (ys : list sym) : bytes :=
  concat (map (fun y => enc_sym c e (trunc_sym c y)) ys).

Lemma sym_enc_len c e y : lenN (enc_sym c e (trunc_sym c y)) = sym_esz c.
Proof. apply enc_sym_len. Qed.

Lemma sym_num_table c e s ys cb :
  Inv s -> contents s = sym_table c e ys -> sh_entsize s = sym_esz c ->
  sh_size s <= s_stream_size s ->
  cb = cls_byte c ->
  (if (cb =? 1) || (cb =? 2) then
     let minsz := if cb =? 1 then 16 else 24 in
     if (minsz <=? sh_entsize s) && (sh_size s <=? s_stream_size s) then sh_size s / sh_entsize s else 0
   else 0) = lenN ys.
Proof.
  intros HI HC HE HS ->. apply N.leb_le in HS. rewrite HS, HE.
  destruct c; exact (table_num _ _ (sym_enc_len _ e) (conj HI HC) eq_refl).
Qed.

Theorem sym_roundtrip c e s ys j y :
  Inv s -> contents s = sym_table c e ys -> sh_entsize s = sym_esz c ->
  sh_size s < size_bound c ->
  nth_optN ys j = Some y ->
  sym_get_core c e s (s_data s) (lenN ys) j = Ok (Some (trunc_sym c y)).
Proof.
  intros HI HC HE HB Hn. pose proof (sym_enc_len c e) as EL. pose proof (conj HI HC : holds_table _ s ys) as H.
  unfold sym_get_core.
  rewrite (table_resident _ _ EL H Hn (sym_esz_pos c)).
  rewrite (proj2 (N.ltb_lt _ _) (nth_optN_lt _ _ _ Hn)), HE.
  rewrite layout_sz_size. fold (sym_esz c).
  rewrite (table_read64 _ _ EL H (sym_esz_pos c) (size_bound_64 _ _ HB) Hn). cbn [bind].
  now rewrite dec_enc_sym, trunc_sym_idem.
Qed.

Theorem sym_out_of_range c e s p (ys : list sym) j : lenN ys <= j -> sym_get_core c e s p (lenN ys) j = Ok None.
Proof.
  intros H. unfold sym_get_core. destruct p; [|reflexivity].
  destruct (N.ltb_spec j (lenN ys)); [lia|reflexivity].
Qed.

Section Proofs.
  Variable junk : N -> N.
  Variable xe : bool.

  (* adding symbols to an empty section: null symbol first, then the entries *)
  Theorem sym_adds_table c e s ys :
    Inv s -> s_cls s = c -> sh_size s = 0 ->
    (lenN ys + 1) * sym_esz c < size_bound c ->
    exists s', append_all junk xe s (map (fun y => enc_sym c e (trunc_sym c y)) (mkSym 0 0 0 0 0 0 :: ys)) = Ok s' /\
      Inv s' /\ contents s' = sym_table c e (mkSym 0 0 0 0 0 0 :: ys) /\
      sh_size s' = (lenN ys + 1) * sym_esz c.
  Proof.
    intros HI HK H0 HB.
    destruct (append_all_table _ _ (sym_enc_len c e) junk xe s (mkSym 0 0 0 0 0 0 :: ys) HI H0) as (s' & E & I & C & S & _).
    { rewrite HK, lenN_cons, N.add_comm. exact HB. }
    exists s'. rewrite S, lenN_cons, N.add_comm. auto.
  Qed.
End Proofs.

(* System V gABI, figure 5-12, on 32-bit unsigned integers: the only place
   where the width matters is the carry out of (h << 4) + c *)
Definition elf_hash_abi_step (h c : N) : N :=
  let h1 := (h * 16 + c) mod 2 ^ 32 in
  let g := N.land h1 4026531840 in
  let h2 := if g =? 0 then h1 else N.lxor h1 (N.shiftr g 24) in
  N.ldiff h2 g.
Definition elf_hash_abi (name : bytes) : N := fold_left elf_hash_abi_step name 0.

(* GNU hash: h = h * 33 + c, starting from 5381, modulo 2^32 *)
Definition gnu_hash_abi (name : bytes) : N := fold_left (fun h c => (h * 33 + c) mod 2 ^ 32) name 5381.

Lemma gnu_hash_step_abi h c : gnu_hash_step h c = (h * 33 + c) mod 2 ^ 32.
Proof.
  unfold gnu_hash_step, wrap32, wrap.
  rewrite N.add_mod_idemp_l, <- N.add_assoc, N.add_mod_idemp_l by discriminate. f_equal. lia.
Qed.

Theorem gnu_hash_is_abi name : elf_gnu_hash name = gnu_hash_abi name.
Proof. apply fold_left_ext, gnu_hash_step_abi. Qed.

(* The SysV step.  All intermediate values stay below 2^32, so the 32-bit
   complement in  h &= ~g  clears exactly the bits of g. *)
Lemma elf_hash_step_abi h c : elf_hash_step h c = elf_hash_abi_step h c.
Proof.
  unfold elf_hash_step, elf_hash_abi_step.
  replace (wrap32 (wrap32 (h * 16) + c)) with ((h * 16 + c) mod 2 ^ 32)
    by (symmetry; apply N.add_mod_idemp_l; discriminate).
  set (h1 := (h * 16 + c) mod 2 ^ 32).
  assert (H1 : h1 < 2 ^ 32) by apply (wrap_lt 32).
  set (g := N.land h1 4026531840).
  assert (Hg : g < 2 ^ 32).
  { apply below_pow2. intros i Hi. unfold g. now rewrite N.land_spec, (testbit_above h1 32 i H1 Hi). }
  set (h2 := if g =? 0 then h1 else N.lxor h1 (N.shiftr g 24)).
  assert (H2 : h2 < 2 ^ 32).
  { unfold h2. destruct (g =? 0); [exact H1|]. apply below_pow2. intros i Hi.
    now rewrite N.lxor_spec, N.shiftr_spec', (testbit_above h1 32 i H1 Hi), (testbit_above g 32) by (exact Hg || lia). }
  apply N.bits_inj; intro i. rewrite N.land_spec, N.ldiff_spec. unfold wrap32, wrap.
  destruct (N.lt_ge_cases i 32) as [Hi|Hi].
  - rewrite N.mod_pow2_bits_low, N.lxor_spec by exact Hi.
    change 4294967295 with (N.ones 32). now rewrite N.ones_spec_low, xorb_true_r by exact Hi.
  - rewrite N.mod_pow2_bits_high, (testbit_above h2 32 i H2 Hi) by exact Hi. reflexivity.
Qed.

Theorem elf_hash_is_abi name : is_bytes name -> elf_hash name = elf_hash_abi name.
Proof. intros _. apply fold_left_ext, elf_hash_step_abi. Qed.

(* lookup by value: the first symbol with that value *)
Fixpoint find_val (c : cls) (value : N) (l : list sym) (i : N) : option N :=
  match l with
  | [] => None
  | y :: t => if st_value (trunc_sym c y) =? value then Some i else find_val c value t (i + 1)
  end.

Theorem scan_values_first c e s ys value : forall fuel i,
  Inv s -> contents s = sym_table c e ys -> sh_entsize s = sym_esz c -> sh_size s < size_bound c ->
  i <= lenN ys -> lenN ys - i <= lenN fuel ->
  scan_values fuel (s_data s) c e (sh_entsize s) value i (lenN ys) = Ok (find_val c value (skipnN ys i) i).
Proof.
  induction fuel as [|u f IH]; intros i HI HC HE HB Hi Hf.
  - cbn [lenN] in Hf. assert (i = lenN ys) by lia. subst i. cbn [scan_values]. rewrite N.ltb_irrefl.
    rewrite skipnN_all by lia. reflexivity.
  - rewrite lenN_cons in Hf. cbn [scan_values]. destruct (N.ltb_spec i (lenN ys)) as [Hlt|Hge].
    + destruct (nth_optN_some ys i Hlt) as (y & Hy).
      pose proof (sym_roundtrip c e s ys i y HI HC HE HB Hy) as R. unfold sym_get_core in R.
      destruct (s_data s) as [b|] eqn:Eb; [|discriminate].
      apply N.ltb_lt in Hlt. rewrite Hlt in R.
      destruct (rd _ _ _) as [ent|]; [|discriminate]. cbn [bind] in R |- *. injection R as ->.
      rewrite (skipnN_nth ys i y Hy). cbn [find_val].
      destruct (_ =? value); [reflexivity|]. apply IH; try assumption; lia.
    + assert (i = lenN ys) by lia. subst i. rewrite skipnN_all by lia. reflexivity.
Qed.
