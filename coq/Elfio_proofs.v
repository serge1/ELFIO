(* Elfio_proofs.v — what replacing one section of an object changes: the section
   list at that index, and nothing else. *)
From ElfioV Require Import Bytes Mem SectionData Elfio Table Accessors.
Local Open Scope N_scope.

Lemma get_sec_lt el i s : get_sec el i = Some s -> i < lenN (el_secs el).
Proof. apply nth_optN_lt. Qed.

Lemma get_upd_sec el i s : i < lenN (el_secs el) -> get_sec (upd_sec el i s) i = Some s.
Proof. apply nth_optN_updN_same. Qed.

Lemma get_upd_sec_other el i k s : i <> k -> get_sec (upd_sec el i s) k = get_sec el k.
Proof. apply nth_optN_updN_other. Qed.

Lemma upd_sec_same el i s : get_sec el i = Some s -> upd_sec el i s = el.
Proof. intros H. unfold upd_sec. rewrite (updN_same _ _ _ H). now destruct el. Qed.

Lemma upd_sec_upd_sec el i s s' : upd_sec (upd_sec el i s) i s' = upd_sec el i s'.
Proof. unfold upd_sec, with_secs. cbn [el_secs]. now rewrite updN_updN. Qed.

(* class and byte order are read from the header *)
Lemma acls_upd_sec el i s : acls (upd_sec el i s) = acls el.
Proof. reflexivity. Qed.
Lemma el_enc_upd_sec el i s : el_enc (upd_sec el i s) = el_enc el.
Proof. reflexivity. Qed.

Definition wlf (s : section) (l cl : bool) : section := with_load_flags s (s_lazy s) l cl.

Lemma sec_get_data_resident junk st t s b : s_data s = Some b ->
  exists l cl, sec_get_data junk st t s = Ok (st, wlf s l cl, []).
Proof.
  intros Hb. unfold sec_get_data.
  destruct (negb (s_loaded s) && s_can_load s).
  - unfold sec_load_data.
    destruct (_ <? _); cbn [bind]; [exists (s_loaded s), false; reflexivity|].
    destruct (_ || _); cbn [bind]; [exists (s_loaded s), false; reflexivity|].
    rewrite Hb. cbn [bind]. exists true, (s_can_load s). reflexivity.
  - exists (s_loaded s), (s_can_load s). destruct s; reflexivity.
Qed.

Lemma sec_data_resident junk el i s b : get_sec el i = Some s -> s_data s = Some b ->
  exists l cl, sec_data junk el i = Ok (upd_sec el i (wlf s l cl), s_data s, wlf s l cl).
Proof.
  intros Hg Hb. unfold sec_data, el_sec_get_data. rewrite Hg.
  destruct (sec_get_data_resident junk (el_stream el) (el_xlat el) s b Hb) as (l & cl & ->). cbn [bind].
  exists l, cl.
  replace (with_stream (upd_sec el i (wlf s l cl)) (el_stream el)) with (upd_sec el i (wlf s l cl)) by now destruct el.
  now rewrite (get_upd_sec el i _ (get_sec_lt el i s Hg)).
Qed.

(* the accessors compute entry sizes with layout_sz, the tables are stated with layout_size *)
Lemma layout_sz_size l : layout_sz l = layout_size l.
Proof. reflexivity. Qed.

(* note fields are padded to multiples of four (stated here because both the note proofs and the
   safety proofs need it) *)
Lemma pad4_32_spec v : v + 3 < 2 ^ 32 -> pad4_32 v = v + (4 - v mod 4) mod 4.
Proof. intros H. unfold pad4_32, wrap32. rewrite wrap_small by exact H. lia. Qed.

Lemma pad4_32_bounds v : v + 3 < 2 ^ 32 -> v <= pad4_32 v < v + 4.
Proof. intros H. rewrite (pad4_32_spec v H). pose proof (N.mod_upper_bound (4 - v mod 4) 4). lia. Qed.
