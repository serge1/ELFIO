(* Properties_C15.v — C15: lazy loading and address translation do not change
   the data that is observed (section level; whole-object equivalence is
   carried by the correspondence run). *)
From ElfioV Require Import Bytes Mem Stream SectionData Strings Elfio Table Loader Load_proofs Data_proofs.
Local Open Scope N_scope.

(* What a data request stores is the file's bytes at the (translated) range,
   NUL-terminated — whenever it is made and wherever the stream stands. *)
Theorem C15_request_yields_file_bytes :
  forall junk st t s,
    is_fail st = false -> st_inv st -> sec_loadable t (is_content st) s ->
    exists st1 s1,
      sec_load_data junk (Some st) t s = Ok (Some st1, s1, true, [sh_size s + 1]) /\
      s_data s1 = Some (sliceN (is_content st) (sec_file_off t s) (sh_size s) ++ [0]) /\
      is_fail st1 = false /\ is_content st1 = is_content st /\ st_inv st1 /\ hdr_same s s1 /\ s_loaded s1 = true /\
      s_lazy s1 = s_lazy s /\ s_can_load s1 = s_can_load s.
Proof. exact sec_load_data_complete. Qed.
Print Assumptions C15_request_yields_file_bytes.

Theorem C15_lazy_equals_eager :
  forall junk st_eager st_lazy t s,
    is_fail st_eager = false -> st_inv st_eager -> is_fail st_lazy = false -> st_inv st_lazy ->
    is_content st_lazy = is_content st_eager ->
    sec_loadable t (is_content st_eager) s ->
    exists a sa b sb,
      sec_load_data junk (Some st_eager) t s = Ok (Some a, sa, true, [sh_size s + 1]) /\
      sec_load_data junk (Some st_lazy) t s = Ok (Some b, sb, true, [sh_size s + 1]) /\
      s_data sa = s_data sb.
Proof.
  intros junk st_eager st_lazy t s F1 I1 F2 I2 Hc Hl.
  destruct (sec_load_data_complete junk st_eager t s F1 I1 Hl) as (a & sa & E1 & D1 & _).
  rewrite <- Hc in Hl. destruct (sec_load_data_complete junk st_lazy t s F2 I2 Hl) as (b & sb & E2 & D2 & _).
  exists a, sa, b, sb. split; [exact E1|]. split; [exact E2|]. rewrite D1, D2, Hc. reflexivity.
Qed.
Print Assumptions C15_lazy_equals_eager.

Theorem C15_release_then_request :
  forall junk st t s s1 st1,
    is_fail st = false -> st_inv st -> sec_loadable t (is_content st) s -> s_lazy s = true -> s_can_load s = true ->
    sec_load_data junk (Some st) t s = Ok (Some st1, s1, true, [sh_size s + 1]) ->
    exists st2 s2 al,
      sec_get_data junk (Some st1) t (free_data s1) = Ok (Some st2, s2, al) /\ s_data s2 = s_data s1.
Proof. exact free_then_get. Qed.
Print Assumptions C15_release_then_request.

Theorem C15_translated_equals_plain :
  forall junk st_plain st_cont t s,
    is_fail st_plain = false -> st_inv st_plain -> is_fail st_cont = false -> st_inv st_cont ->
    sec_loadable [] (is_content st_plain) s -> sec_loadable t (is_content st_cont) s ->
    sliceN (is_content st_cont) (sec_file_off t s) (sh_size s) = sliceN (is_content st_plain) (sec_file_off [] s) (sh_size s) ->
    exists a sa b sb al bl,
      sec_load_data junk (Some st_plain) [] s = Ok (Some a, sa, true, al) /\
      sec_load_data junk (Some st_cont) t s = Ok (Some b, sb, true, bl) /\
      s_data sa = s_data sb.
Proof.
  intros junk st_plain st_cont t s F1 I1 F2 I2 L1 L2 Hs.
  destruct (sec_load_data_complete junk st_plain [] s F1 I1 L1) as (a & sa & E1 & D1 & _).
  destruct (sec_load_data_complete junk st_cont t s F2 I2 L2) as (b & sb & E2 & D2 & _).
  eexists a, sa, b, sb, _, _. split; [exact E1|]. split; [exact E2|]. rewrite D1, D2, Hs. reflexivity.
Qed.
Print Assumptions C15_translated_equals_plain.

(* non-vacuity: a 4-byte section at offset 2 of a 10-byte stream, plain and
   through a translation that maps offset 2 to offset 5 of a container *)
Definition ex_s : section :=
  with_stream_size (with_size (with_offset (with_type (new_section C64) SHT_PROGBITS) 2) 4) 10.
Definition ex_plain := open_istream StringBuf [0; 1; 2; 3; 4; 5; 6; 7; 8; 9].
Definition ex_cont := open_istream StringBuf [9; 9; 9; 9; 9; 2; 3; 4; 5; 9].
Example C15_example :
  sec_loadable [] (is_content ex_plain) ex_s /\ sec_loadable [(2, 4, 5)] (is_content ex_cont) ex_s /\
  (exists st1 s1 al, sec_load_data (fun _ => 0) (Some ex_plain) [] ex_s = Ok (st1, s1, true, al) /\ s_data s1 = Some [2; 3; 4; 5; 0]) /\
  (exists st1 s1 al, sec_load_data (fun _ => 0) (Some ex_cont) [(2, 4, 5)] ex_s = Ok (st1, s1, true, al) /\ s_data s1 = Some [2; 3; 4; 5; 0]).
Proof.
  split; [|split; [|split]].
  - unfold sec_loadable. vm_compute. repeat split; try discriminate; intro; discriminate.
  - unfold sec_loadable. vm_compute. repeat split; try discriminate; intro; discriminate.
  - vm_compute. eauto.
  - vm_compute. eauto.
Qed.
