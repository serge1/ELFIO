(* Properties_C04.v — C04: saved files are structurally well-formed (objects
   without segments: proved; objects with segments: modelled and tied by the
   correspondence run, partial). *)
From ElfioV Require Import Bytes Mem Stream SectionData Strings Elfio Table Loader Layout Writer Ostream_proofs Layout_proofs Writer_proofs Segment_proofs Oneseg_proofs Oneseg_writer.
Local Open Scope N_scope.

(* The layout step of save() for an object without segments (any sections, any
   alignments — also non powers of two —, any sizes, file below the class's
   address width): every section keeps all attributes but its offset; the
   sections lie one after the other after the ELF header, each aligned; the
   section header table is placed after all of them; doing it again is a no-op. *)
Theorem C04_layout_without_segments :
  forall el h0 bound,
    el_hdr el = Some h0 -> el_segs el = [] ->
    bound <= 2 ^ 64 -> Forall (fun s => bound <= 2 ^ xw (s_cls s)) (el_secs el) ->
    e_ehsize h0 + budget (el_secs el) + 16 < bound ->
    exists el' secs' h' pos',
      layout el = Ok (el', true) /\ el_secs el' = secs' /\ el_segs el' = [] /\ el_hdr el' = Some h' /\
      Forall2 keeps (el_secs el) secs' /\ chain secs' (e_ehsize h0) pos' /\
      h' = hdr_set (hdr_prep h0 (wrap16 (lenN (el_secs el)))) HShoff (pos' + (16 - pos' mod 16)) /\
      pos' <= e_ehsize h0 + budget (el_secs el) /\
      layout el' = Ok (el', true).
Proof. exact layout_noseg. Qed.
Print Assumptions C04_layout_without_segments.

(* what a chain means: every section with an assigned offset starts aligned,
   at or after the ELF header, and ends before the section header table ... *)
Theorem C04_chain_member :
  forall l lo hi s, chain l lo hi -> In s l -> s_index s <> 0 ->
    lo <= sh_offset s /\ sh_offset s + csize s <= hi /\ (1 < sh_addralign s -> sh_offset s mod sh_addralign s = 0).
Proof. exact chain_member. Qed.
Print Assumptions C04_chain_member.

(* ... and the file ranges of any two of them are disjoint (the earlier one
   ends before the later one starts; csize is 0 for no-bits and null sections) *)
Theorem C04_chain_disjoint :
  forall l lo hi pre a mid b post,
    chain l lo hi -> l = pre ++ a :: mid ++ b :: post -> s_index a <> 0 -> s_index b <> 0 ->
    sh_offset a + csize a <= sh_offset b.
Proof. exact chain_disjoint. Qed.
Print Assumptions C04_chain_disjoint.

(* the byte ranges save() writes for such an object — ELF header, every section
   header record, every section's data — are pairwise disjoint *)
Theorem C04_written_ranges_disjoint :
  forall (h : ehdr) (secs : list section) (pos' : N),
    chain secs (e_ehsize h) pos' -> indexed_from 0 secs -> pos' <= e_shoff h ->
    (forall s, In s secs -> shdr_size (s_cls s) <= e_shentsize h) ->
    (forall s, In s secs -> s_index s = 0 -> csize s = 0) ->
    lenN (e_ident h) = 16 -> e_ehsize h = ehdr_size (e_cls h) ->
    (forall s b, In s secs -> s_data s = Some b -> sh_size s <= lenN b) ->
    all_disjoint (noseg_plan h secs).
Proof.
  intros h secs pos' Hch Hidx Hsh Hes Hnull Hident Heh Hdata.
  exact (noseg_plan_disjoint h secs pos' Hch (Build_writes_ok h secs Hidx Hes Hnull Hident Heh) Hsh Hdata).
Qed.
Print Assumptions C04_written_ranges_disjoint.

(* and the layout step delivers those premises *)
Theorem C04_layout_delivers :
  forall el h0 bound,
    el_hdr el = Some h0 -> el_segs el = [] ->
    bound <= 2 ^ 64 -> Forall (fun s => bound <= 2 ^ xw (s_cls s)) (el_secs el) ->
    e_ehsize h0 + budget (el_secs el) + 16 < bound -> bound <= 2 ^ xw (e_cls h0) ->
    indexed_from 0 (el_secs el) ->
    exists el' h',
      layout el = Ok (el', true) /\ el_hdr el' = Some h' /\ indexed_from 0 (el_secs el') /\
      exists pos', chain (el_secs el') (e_ehsize h') pos' /\ pos' <= e_shoff h' /\ e_ehsize h' = e_ehsize h0 /\
                   e_shentsize h' = e_shentsize h0.
Proof. exact layout_noseg_chain. Qed.
Print Assumptions C04_layout_delivers.

(* ---- segments: the basic case.  A segment (not PT_PHDR, offset not fixed by a
   previous load) all of whose members are allocated data sections the writer
   addresses itself.  Its file offset is congruent to its virtual address modulo
   its alignment; the members follow one another, each aligned, inside
   [p_offset, p_offset + p_filesz), each at the same distance from the segment
   start in the file as in memory; the memory size covers the file size. *)
Theorem C04_segment_of_auto_members :
  forall h g secs gen pos bound ms,
    let idxs := g_sections g in
    let align := if 0 <? p_align g then p_align g else 1 in
    lenN idxs < 2 ^ 16 -> idxs <> [] ->
    g_offset_set g = false -> p_type g <> PT_PHDR ->
    NoDup idxs -> Forall2 (fun i s => nth_optN secs i = Some s) idxs ms ->
    Forall auto_member ms -> Forall (fun s => bound <= 2 ^ xw (s_cls s)) ms ->
    (forall i, In i idxs -> nth_optN gen i = Some false) ->
    bound <= 2 ^ 64 -> bound <= 2 ^ xw (g_cls g) -> p_align g < 2 ^ 63 ->
    p_vaddr g + pos + align + mbudget ms < bound ->
    exists g' secs' gen' pos' seg_start,
      layout_one_segment h g secs gen pos = Ok (g', secs', gen', pos', true) /\
      pos <= seg_start /\ seg_start < pos + align /\
      seg_start mod align = p_vaddr g mod align /\
      p_offset g' = seg_start /\ p_vaddr g' = p_vaddr g /\
      p_filesz g' = pos' - seg_start /\ p_filesz g' <= p_memsz g' /\
      mchain g seg_start secs' idxs seg_start pos' /\
      (forall j, ~ In j idxs -> nth_optN secs' j = nth_optN secs j) /\ lenN secs' = lenN secs.
Proof.
  intros h g secs gen pos bound ms idxs align H1 H2 H3 H4 H5 H6 H7 H8 H9 H10 H11 H12 H13.
  pose proof (layout_one_segment_auto h g secs gen pos bound ms H1 H2 H3 H4 H5 H6 H7 H9 H10 H12 H13) as E. cbv zeta in E.
  destruct E as (A1 & A2 & A3 & gen' & E). fold align in A2, A3. revert A3.
  set (ss := seg_start_at pos g) in *. set (R := place_members (p_vaddr g) ss ss ms) in *.
  destruct (place_members_bounds (p_vaddr g) ss ms ss) as [B1 B2]. fold R in B1, B2.
  destruct (seg_laid_fields g ss (snd R) bound H11 B1 ltac:(lia)) as (O1 & F1 & M1 & V1 & _).
  destruct (place_members_chain g ss bound _ ms idxs ss (upd_list_nth _ ms (fst R) secs H5 H6 (lenN_place_members _ _ _ _))
              H8 (N.le_refl _) ltac:(lia)) as [Ch _].
  intros A3. eexists _, _, _, _, ss. split; [exact E|]. repeat split; try assumption.
  - intros j Hj. now apply upd_list_other.
  - apply lenN_upd_list.
Qed.
Print Assumptions C04_segment_of_auto_members.

(* The whole layout step of save() for an object with ONE segment whose members are allocated data
   sections the writer addresses itself (alignment of the segment at least that of its members, as
   add_section_index leaves it), plus any sections outside the segment: the program header table follows
   the ELF header; the segment starts at or after it, at a file offset congruent to its address modulo
   its alignment; its members follow one another inside [p_offset, p_offset + p_filesz), each aligned, at
   the same distance from the segment start in the file as in memory (mchain); memory size >= file size;
   the sections outside the segment keep everything but their offset and lie in a chain behind the
   segment (chain over free_list); the section header table comes after everything. *)
Theorem C04_layout_with_one_segment :
  forall el h0 g bound ms,
    let idxs := g_sections g in
    let align := if 0 <? p_align g then p_align g else 1 in
    let secs := el_secs el in
    let pos0 := e_ehsize h0 + e_phentsize h0 in
    el_hdr el = Some h0 -> el_segs el = [g] -> lenN secs < 2 ^ 16 ->
    lenN idxs < 2 ^ 16 -> idxs <> [] -> g_offset_set g = false -> p_type g <> PT_PHDR -> NoDup idxs ->
    Forall2 (fun i s => nth_optN secs i = Some s) idxs ms ->
    Forall auto_member ms -> Forall (fun s => sh_addralign s <= p_align g) ms ->
    bound <= 2 ^ 64 -> Forall (fun s => bound <= 2 ^ xw (s_cls s)) secs -> bound <= 2 ^ xw (g_cls g) ->
    p_align g < 2 ^ 63 ->
    p_vaddr g + pos0 + align + mbudget ms + budget secs + 16 < bound ->
    exists el' g' secs' seg_start pos1 pos2,
      layout el = Ok (el', true) /\
      el_hdr el' = Some (hdr_set (hdr_prep1 h0 (lenN secs)) HShoff (pos2 + (16 - pos2 mod 16))) /\
      el_segs el' = [g'] /\ el_secs el' = secs' /\
      el_xlat el' = el_xlat el /\ el_compr el' = el_compr el /\ el_stream el' = el_stream el /\
      pos0 <= seg_start /\ seg_start < pos0 + align /\ seg_start mod align = p_vaddr g mod align /\
      p_offset g' = seg_start /\ p_vaddr g' = p_vaddr g /\ p_filesz g' = pos1 - seg_start /\ p_filesz g' <= p_memsz g' /\
      (g_sections g' = idxs /\ g_offset_set g' = true /\ p_align g' = p_align g /\ p_type g' = p_type g /\ g_cls g' = g_cls g /\
       g_index g' = g_index g /\ p_flags g' = p_flags g /\ p_paddr g' = p_paddr g) /\
      mchain g seg_start secs' idxs seg_start pos1 /\
      Forall2 (fun i s => exists a o, nth_optN secs' i = Some (with_offset (with_addr s a) o)) idxs ms /\
      (forall j s, ~ In j idxs -> nth_optN secs j = Some s -> exists s', nth_optN secs' j = Some s' /\ keeps s s') /\
      lenN secs' = lenN secs /\
      chain (free_list [g'] 0 secs') pos1 pos2 /\
      pos1 <= seg_start + mbudget ms /\ pos2 <= pos1 + budget secs.
Proof. intros el h0 g bound ms. cbv zeta. intros. apply (layout_oneseg el h0 g bound ms). now constructor. Qed.
Print Assumptions C04_layout_with_one_segment.

(* ... and in that layout no two sections' file ranges overlap, whichever of them are members *)
Theorem C04_one_segment_data_disjoint :
  forall (g g' : segment) secs' ss pos1 pos2,
    mchain g ss secs' (g_sections g) ss pos1 ->
    chain (free_list [g'] 0 secs') pos1 pos2 ->
    g_sections g' = g_sections g -> lenN (g_sections g) < 2 ^ 16 ->
    (forall i s, In i (g_sections g) -> nth_optN secs' i = Some s -> csize s = sh_size s) ->
    (forall j s, nth_optN secs' j = Some s -> s_index s = 0 -> csize s = 0) ->
    forall i j a b, i <> j -> nth_optN secs' i = Some a -> nth_optN secs' j = Some b -> NoDup (g_sections g) ->
      rng_disjoint (data_range a) (data_range b).
Proof. exact oneseg_data_disjoint. Qed.
Print Assumptions C04_one_segment_data_disjoint.

Theorem C04_member_of_chain :
  forall g ss secs' idxs lo hi i, mchain g ss secs' idxs lo hi -> In i idxs ->
    exists s, nth_optN secs' i = Some s /\ lo <= sh_offset s /\ sh_offset s + sh_size s <= hi /\
              sh_offset s mod eff_align s = 0 /\ sh_addr s - p_vaddr g = sh_offset s - ss /\ p_vaddr g <= sh_addr s.
Proof. exact mchain_member. Qed.
Print Assumptions C04_member_of_chain.

(* non-vacuity: a PT_LOAD segment at 0x8048004, align 0x1000, with .text (align 16, 5 bytes) and .data (align 4, 3 bytes) *)
Definition ms (i al sz : N) : section :=
  with_index (with_flags (with_size (with_addralign (with_type (new_section C32) 1) al) sz) 2) i.
Definition ex_seg : segment :=
  seg_add_section_index (seg_add_section_index (seg_set (seg_set (seg_set (new_segment C32) GType 1) GVaddr 134512644) GAlign 4096) 1 16) 2 4.
Example C04_segment_example :
  exists g' secs' gen' pos',
    layout_one_segment (new_header C32 LSB) ex_seg [ms 0 0 0; ms 1 16 5; ms 2 4 3] [false; false; false] 84 =
      Ok (g', secs', gen', pos', true) /\
    p_offset g' = 4100 /\ p_filesz g' = 23 /\ map sh_offset secs' = [0; 4112; 4120] /\ map sh_addr secs' = [0; 134512656; 134512664] /\
    auto_member (ms 1 16 5).
Proof. eexists _, _, _, _. split; [vm_compute; reflexivity|]. vm_compute. repeat split; try reflexivity; discriminate. Qed.

(* non-vacuity: null section, 5 bytes aligned 1, 3 bytes aligned 8, no-bits aligned 16 *)
Definition mk (i ty al sz : N) : section :=
  with_index (with_size (with_addralign (with_type (new_section C32) ty) al) sz) i.
Definition ex_el : elfio :=
  with_secs (with_hdr (empty_elfio false) (Some (new_header C32 LSB)))
            [mk 0 0 0 0; mk 1 1 1 5; mk 2 1 8 3; mk 3 8 16 100].
Example C04_example :
  exists el', layout ex_el = Ok (el', true) /\
    map sh_offset (el_secs el') = [0; 52; 64; 80] /\
    option_map e_shoff (el_hdr el') = Some 96 /\
    e_ehsize (new_header C32 LSB) + budget (el_secs ex_el) + 16 < 2 ^ 32.
Proof. eexists. split; [vm_compute; reflexivity|]. vm_compute. repeat split; reflexivity. Qed.

(* non-vacuity: ELF32, a PT_LOAD segment at 0x8048004 (align 0x1000) holding .text and .data, a free section behind *)
Example C04_one_segment_example :
  let fs (i : N) := with_index (with_size (with_addralign (with_type (new_section C32) 1) 1) 7) i in
  let el := with_segs (with_secs (with_hdr (empty_elfio false) (Some (new_header C32 LSB)))
                                 [ms 0 0 0; ms 1 16 5; ms 2 4 3; fs 3]) [ex_seg] in
  exists el', layout el = Ok (el', true) /\
    map sh_offset (el_secs el') = [0; 4112; 4120; 4123] /\ map p_offset (el_segs el') = [4100] /\
    map p_filesz (el_segs el') = [23] /\ option_map e_shoff (el_hdr el') = Some 4144 /\ option_map e_phoff (el_hdr el') = Some 52.
Proof. eexists. split; [vm_compute; reflexivity|]. vm_compute. repeat split; reflexivity. Qed.

