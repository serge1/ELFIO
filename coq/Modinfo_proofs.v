(* Modinfo_proofs.v — C01: the modinfo reader never faults on data that ends in
   the terminator the loader appends. *)
From ElfioV Require Import Bytes Mem Stream SectionData Strings Elfio Table Accessors Loader Load_proofs Safety_proofs.
From Coq Require Import ZifyBool ZifyN ZifyNat.
Local Open Scope N_scope.

Lemma find0_total (l : bytes) : forall limit acc k,
  k < limit -> k < lenN l -> nthN l k 1 = 0 ->
  exists r, find0 l limit acc = Some r /\ acc <= r /\ r - acc <= k /\
            (forall j, j < r - acc -> nthN l j 1 <> 0) /\ nthN l (r - acc) 1 = 0.
Proof.
  induction l as [|x t IH]; intros limit acc k Hk Hl Hz; [cbn in Hl; lia|]. rewrite lenN_cons in Hl.
  cbn [find0]. destruct (N.eqb_spec limit 0); [lia|]. destruct (N.eqb_spec x 0) as [->|Hx].
  - exists acc. split; [reflexivity|]. split; [lia|]. split; [lia|]. split; [intros j Hj; lia|]. rewrite N.sub_diag. reflexivity.
  - cbn [nthN] in Hz. destruct (N.eqb_spec k 0) as [->|Hk0]; [congruence|].
    destruct (IH (limit - 1) (N.succ acc) (k - 1) ltac:(lia) ltac:(lia) Hz) as (r & -> & R1 & R2 & R3 & R4).
    exists r. split; [reflexivity|]. split; [lia|]. split; [lia|]. split.
    + intros j Hj. cbn [nthN]. destruct (N.eqb_spec j 0) as [->|Hj0]; [exact Hx|]. apply R3. lia.
    + cbn [nthN]. destruct (N.eqb_spec (r - acc) 0); [lia|]. replace (r - acc - 1) with (r - N.succ acc) by lia. exact R4.
Qed.

Section Modinfo.
  Variable junk : N -> N.
  Variable host : endian.

  (* the buffer covers the section and holds a NUL right after it *)
  Definition terminated (b : bytes) (size : N) : Prop := size < lenN b /\ nthN b size 1 = 0.

  Lemma nthN_default_indep {A} (l : list A) k d1 d2 : k < lenN l -> nthN l k d1 = nthN l k d2.
  Proof.
    revert k; induction l as [|x t IH]; intros k H; [cbn in H; lia|]. rewrite lenN_cons in H. cbn [nthN].
    destruct (N.eqb_spec k 0); [reflexivity|]. apply IH. lia.
  Qed.

  Lemma skip_nul_total fuel (b : bytes) size : forall i,
    size < lenN b -> size - i < lenN fuel ->
    exists r, skip_nul fuel (Some b) size i = Ok r /\ i <= r /\ (r < size -> nthN b r 1 <> 0) /\ (i <= size -> r <= size).
  Proof.
    induction fuel as [|u f IH]; intros i Hb Hf; [cbn [lenN] in Hf; lia|]. rewrite lenN_cons in Hf.
    cbn [skip_nul]. destruct (N.ltb_spec i size) as [Hi|Hi]; [|exists i; repeat split; try lia; intros; lia].
    rewrite rd_some by lia. cbn [bind]. rewrite (sliceN_one b i 0) by lia. cbn [nthN N.eqb].
    destruct (N.eqb_spec (nthN b i 0) 0) as [E|E].
    - destruct (IH (i + 1) Hb ltac:(lia)) as (r & -> & R1 & R2 & R3). exists r. split; [reflexivity|]. split; [lia|]. split; [exact R2|]. intros; apply R3; lia.
    - exists i. split; [reflexivity|]. split; [lia|]. split; [|lia]. intros _.
      rewrite (nthN_default_indep b i 1 0) by lia. exact E.
  Qed.

  Theorem mod_parse_total fuel (b : bytes) size : forall i acc,
    terminated b size -> i <= size -> size - i < lenN fuel ->
    exists r, mod_parse fuel (Some b) size i acc = Ok r.
  Proof.
    induction fuel as [|u f IH]; intros i acc Ht Hi Hf; [cbn [lenN] in Hf; lia|]. rewrite lenN_cons in Hf.
    destruct Ht as [Hb Hz]. cbn [mod_parse]. destruct (N.ltb_spec i size) as [Hlt|Hge]; [|eauto].
    destruct (skip_nul_total (0 :: b) b size i Hb ltac:(rewrite lenN_cons; lia)) as (i1 & -> & S1 & S2 & S3).
    cbn [bind]. specialize (S3 Hi). destruct (N.ltb_spec i1 size) as [H1|H1].
    - (* a string starts at i1; its terminator is at most at [size] *)
      unfold cstring_at.
      assert (Hnz : nthN (skipnN b i1) (size - i1) 1 = 0) by (rewrite nthN_skipnN; replace (i1 + (size - i1)) with size by lia; exact Hz).
      destruct (find0_total (skipnN b i1) (lenN b) 0 (size - i1) ltac:(lia) ltac:(rewrite lenN_skipnN; lia) Hnz)
        as (k & -> & K1 & K2 & K3 & K4). cbn [bind].
      assert (Hk : 0 < k).
      { destruct (N.eq_dec k 0) as [->|]; [|lia]. exfalso.
        (* k = 0 would mean b[i1] = 0, but skip_nul stopped on a non-NUL *)
        rewrite N.sub_0_r, nthN_skipnN, N.add_0_r in K4. exact (S2 H1 K4). }
      apply IH; [split; assumption| |].
      + rewrite lenN_firstnN, lenN_skipnN. lia.
      + rewrite lenN_firstnN, lenN_skipnN. lia.
    - apply IH; [split; assumption|lia|lia].
  Qed.
End Modinfo.

Section Modinfo2.
  Variable junk : N -> N.

  Lemma loaded_data_terminated st0 t s st1 s1 ok al d :
    fits s -> s_data s = None -> 0 < sh_size s ->
    sec_load_data junk (Some st0) t s = Ok (st1, s1, ok, al) -> s_data s1 = Some d ->
    terminated d (sh_size s1).
  Proof.
    intros Hf Hn Hz E Hd.
    destruct (sec_load_data_total junk st0 t s Hf) as (st1' & s1' & ok' & al' & E' & (F1 & HS & _) & Hfrom).
    rewrite E in E'. injection E' as -> -> -> ->.
    destruct (Hfrom Hn d Hd Hz) as [-> _]. unfold fits in F1. rewrite Hd, lenN_app in F1. cbn [lenN] in F1.
    rewrite (hdr_same_size _ _ HS) in *.
    pose proof (lenN_sliceN_le (is_content st0) (sec_file_off t s) (sh_size s)) as HL.
    split; [rewrite lenN_app; cbn [lenN]; lia|]. rewrite nthN_app_ge by lia.
    replace (sh_size s - _) with 0 by lia. reflexivity.
  Qed.

  Theorem mod_new_total content k el sec s0 :
    loaded_ok content k el -> get_sec el sec = Some s0 ->
    (forall el1 s1 b, sec_data junk el sec = Ok (el1, Some b, s1) -> 0 < sh_size s1 -> terminated b (sh_size s1)) ->
    exists el1 a, mod_new junk el sec = Ok (el1, a).
  Proof.
    intros H Hg Ht. unfold mod_new.
    destruct (sec_data_total junk content k el sec s0 H Hg) as (el1 & s1 & E & _ & G & B & _).
    specialize (Ht el1 s1). rewrite E in *. cbn [bind].
    destruct (s_data s1) as [b|] eqn:Ed; [|eauto]. specialize (Ht b eq_refl). cbn in B.
    destruct (N.eq_dec (sh_size s1) 0) as [E0|E0].
    - rewrite E0. cbn [mod_parse N.ltb N.compare bind]. eauto.
    - destruct (mod_parse_total junk (0 :: 0 :: b) b (sh_size s1) 0 [] (Ht ltac:(lia)) ltac:(lia) ltac:(rewrite !lenN_cons; lia)) as (r & ->).
      cbn [bind]. eauto.
  Qed.
End Modinfo2.
