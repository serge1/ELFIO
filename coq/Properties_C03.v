(* Properties_C03.v — C03: a file built through the API decodes, per the ELF
   spec, to what was put in.  Proved: every record the writer emits decodes back
   field by field in the byte order declared in e_ident; every planned write
   that nothing later overwrites is found verbatim in the saved bytes at its
   position; what the writer plans for a section is its header record at the
   table position and its data at its offset.  That the planned ranges of one
   save() never overlap is proved for objects without segments (Properties_C04)
   and for objects with one segment of automatically addressed members
   (C03_one_segment_saved_file); for these two classes the theorems at the end
   go from the object as built, through save() itself, to the bytes of the file.
   Objects with several segments, nested segments or members with fixed
   addresses are left to the correspondence run against the C++ library. *)
From ElfioV Require Import Bytes Mem Stream SectionData Elfio Loader Layout Writer Codec_proofs Ostream_proofs
     Layout_proofs Writer_proofs Segment_proofs Oneseg_proofs Oneseg_writer Save_endtoend.
Local Open Scope N_scope.

Theorem C03_header_record_decodes :
  forall h, ehdr_wf h -> ehdr_of_bytes (e_cls h) (e_enc h) (ehdr_bytes h) = h.
Proof. exact ehdr_roundtrip. Qed.
Print Assumptions C03_header_record_decodes.

Theorem C03_section_record_decodes :
  forall enc s0 s, s_cls s0 = s_cls s -> shdr_wf s ->
    let r := sec_with_raw enc s0 (shdr_bytes enc s) in
    sh_name r = sh_name s /\ sh_type r = sh_type s /\ sh_flags r = sh_flags s /\ sh_addr r = sh_addr s /\
    sh_offset r = sh_offset s /\ sh_size r = sh_size s /\ sh_link r = sh_link s /\ sh_info r = sh_info s /\
    sh_addralign r = sh_addralign s /\ sh_entsize r = sh_entsize s.
Proof. exact shdr_roundtrip. Qed.
Print Assumptions C03_section_record_decodes.

Theorem C03_segment_record_decodes :
  forall enc g0 g ss lz, g_cls g0 = g_cls g -> phdr_wf g ->
    let r := seg_of_raw enc g0 (phdr_bytes enc g) ss lz in
    p_type r = p_type g /\ p_flags r = p_flags g /\ p_offset r = p_offset g /\ p_vaddr r = p_vaddr g /\
    p_paddr r = p_paddr g /\ p_filesz r = p_filesz g /\ p_memsz r = p_memsz g /\ p_align r = p_align g.
Proof. exact phdr_roundtrip. Qed.
Print Assumptions C03_segment_record_decodes.

(* the identification bytes declare the class and byte order the records use *)
Theorem C03_ident_declares_encoding :
  forall c e, let h := new_header c e in
    nthN (e_ident h) 4 0 = cls_byte c /\ nthN (e_ident h) 5 0 = enc_byte e /\ e_cls h = c /\ e_enc h = e /\
    firstnN (ehdr_bytes h) 16 = e_ident h.
Proof. intros c e. destruct c, e; repeat split. Qed.
Print Assumptions C03_ident_declares_encoding.

(* the saved bytes: executing a write plan on a fresh stream *)
Theorem C03_planned_write_appears_verbatim :
  forall s before (w : N * bytes) after,
    stream_ok s -> good s -> plan_small (os_len s) (before ++ w :: after) ->
    (forall w' i, In w' after -> in_range w i = true -> in_range w' i = false) ->
    sliceN (os_bytes (exec_plan s (before ++ w :: after))) (fst w) (lenN (snd w)) = snd w.
Proof. exact plan_slice_visible. Qed.
Print Assumptions C03_planned_write_appears_verbatim.

(* what save() plans for one section whose data is resident *)
Theorem C03_section_plan :
  forall junk enc st t s hpos b,
    s_index s <> 0 -> sh_type s <> SHT_NOBITS -> sh_type s <> SHT_NULL -> sh_size s <> 0 ->
    s_data s = Some b -> sh_size s <= lenN b -> s_loaded s = true -> sh_offset s < 2 ^ xw (s_cls s) ->
    section_plan junk false enc st t s hpos =
      Ok (st, s, [(hpos, shdr_bytes enc s); (sh_offset s, firstnN b (sh_size s))]).
Proof.
  intros junk enc st t s hpos b Hi Hn1 Hn2 Hz Hd Hb Hl Ho.
  assert (Hc : csize s = sh_size s).
  { unfold csize, carries. apply N.eqb_neq in Hn1, Hn2. now rewrite Hn1, Hn2. }
  rewrite section_plan_plannable, Hd.
  - rewrite Hc. apply N.eqb_neq in Hz. now rewrite Hz.
  - apply ready_plannable. split; [exact Ho|]. intros _ b' Hd'. rewrite Hd in Hd'. injection Hd' as <-. auto.
Qed.
Print Assumptions C03_section_plan.

(* Objects without segments, end to end.  After the layout step (chain of
   sections after the ELF header, section header table after them:
   C04_layout_without_segments / layout_noseg_chain) the writes of save() are
   the plan [noseg_plan] (C03_sections_plan_is_the_plan), and in the saved file
   the ELF header is found at 0, every section's header record at
   e_shoff + e_shentsize * index and every non-empty section's data at its
   offset — each verbatim, hence (by the three record theorems above) decoding
   to what was put in. *)
Theorem C03_noseg_saved_file :
  forall (h : ehdr) (secs : list section) (pos' : N),
    chain secs (e_ehsize h) pos' -> indexed_from 0 secs -> pos' <= e_shoff h ->
    (forall s, In s secs -> shdr_size (s_cls s) <= e_shentsize h) ->
    (forall s, In s secs -> s_index s = 0 -> csize s = 0) ->
    lenN (e_ident h) = 16 -> e_ehsize h = ehdr_size (e_cls h) ->
    (forall s b, In s secs -> s_data s = Some b -> sh_size s <= lenN b) ->
    plan_small 0 (noseg_plan h secs) ->
    let file := os_bytes (exec_plan (new_ostream None) (noseg_plan h secs)) in
    sliceN file 0 (ehdr_size (e_cls h)) = ehdr_bytes h /\
    (forall s, In s secs ->
       sliceN file (e_shoff h + e_shentsize h * s_index s) (shdr_size (s_cls s)) = shdr_bytes (e_enc h) s) /\
    (forall s b, In s secs -> csize s <> 0 -> s_data s = Some b ->
       sliceN file (sh_offset s) (sh_size s) = firstnN b (sh_size s)).
Proof.
  intros h secs pos' Hch Hidx Hsh Hes Hnull Hident Heh Hdata.
  exact (noseg_file_contents h secs pos' Hch (Build_writes_ok h secs Hidx Hes Hnull Hident Heh) Hsh Hdata).
Qed.
Print Assumptions C03_noseg_saved_file.

(* Objects with one segment of automatically addressed members (plus any sections outside it), end to
   end from the object as built to the bytes of the file: the layout step succeeds; the writes of save()
   — ELF header, the program header record, every section header record, every section's data — are
   pairwise disjoint; so the saved file holds the ELF header at 0, the program header record at e_phoff,
   every section's header record at e_shoff + e_shentsize * index and every non-empty section's data at
   its offset, each verbatim (hence, by the three record theorems above, decoding to what was put in). *)
Theorem C03_one_segment_saved_file :
  forall el h0 g bound ms,
    let idxs := g_sections g in
    let align := if 0 <? p_align g then p_align g else 1 in
    let secs := el_secs el in
    let pos0 := e_ehsize h0 + e_phentsize h0 in
    el_hdr el = Some h0 -> el_segs el = [g] -> lenN secs < 2 ^ 16 ->
    lenN idxs < 2 ^ 16 -> idxs <> [] -> g_offset_set g = false -> p_type g <> PT_PHDR -> NoDup idxs ->
    Forall2 (fun i s => nth_optN secs i = Some s) idxs ms ->
    Forall auto_member ms -> Forall (fun s => sh_addralign s <= p_align g) ms ->
    bound <= 2 ^ 63 -> Forall (fun s => bound <= 2 ^ xw (s_cls s)) secs -> bound <= 2 ^ xw (g_cls g) ->
    bound <= 2 ^ xw (e_cls h0) -> p_align g < 2 ^ 63 ->
    p_vaddr g + pos0 + align + mbudget ms + budget secs + 16 + e_shentsize h0 * lenN secs < bound ->
    indexed_from 0 secs ->
    (forall s, In s secs -> s_index s = 0 -> csize s = 0) ->
    (forall s b, In s secs -> s_data s = Some b -> sh_size s <= lenN b) ->
    lenN (e_ident h0) = 16 -> e_ehsize h0 = ehdr_size (e_cls h0) ->
    (forall s, In s secs -> shdr_size (s_cls s) <= e_shentsize h0) ->
    phdr_size (g_cls g) <= e_phentsize h0 -> g_index g = 0 ->
    exists el' h' g' seg_start pos1 pos2,
      layout el = Ok (el', true) /\ el_hdr el' = Some h' /\ el_segs el' = [g'] /\
      Forall2 relaid secs (el_secs el') /\
      e_phoff h' = e_ehsize h0 /\ e_phnum h' = 1 /\ e_shnum h' = lenN secs /\
      e_shoff h' = pos2 + (16 - pos2 mod 16) /\
      pos0 <= seg_start /\ seg_start mod align = p_vaddr g mod align /\
      p_offset g' = seg_start /\ p_vaddr g' = p_vaddr g /\ p_filesz g' = pos1 - seg_start /\ p_filesz g' <= p_memsz g' /\
      mchain g seg_start (el_secs el') idxs seg_start pos1 /\
      chain (free_list [g'] 0 (el_secs el')) pos1 pos2 /\
      let plan := oneseg_plan h' (el_secs el') (segments_plan (e_enc h') h' [g']) in
      all_disjoint plan /\
      (plan_small 0 plan ->
       let file := os_bytes (exec_plan (new_ostream None) plan) in
       sliceN file 0 (ehdr_size (e_cls h')) = ehdr_bytes h' /\
       sliceN file (e_phoff h') (phdr_size (g_cls g')) = phdr_bytes (e_enc h') g' /\
       (forall s, In s (el_secs el') ->
          sliceN file (e_shoff h' + e_shentsize h' * s_index s) (shdr_size (s_cls s)) = shdr_bytes (e_enc h') s) /\
       (forall s b, In s (el_secs el') -> csize s <> 0 -> s_data s = Some b ->
          sliceN file (sh_offset s) (sh_size s) = firstnN b (sh_size s))).
Proof.
  intros el h0 g bound ms. cbv zeta.
  intros Hh Hs Hnsec Hlen Hne Hos Hty Hnd HF Hauto Hdom Hb63 Hcls Hbg Hbh Hal Hbud Hidx Hnull Hdata Hident Heh Hes Hph Hgi.
  assert (O : oneseg el h0 g bound ms) by (constructor; try assumption; lia).
  assert (F : oneseg_file el h0 g bound ms) by (constructor; try assumption; constructor; assumption).
  destruct (oneseg_laid el h0 g bound ms O) as (el' & h' & g' & ss & pos1 & pos2 & L).
  exists el', h', g', ss, pos1, pos2.
  split; [exact (ld_layout L)|]. split; [exact (ld_hdr L)|]. split; [exact (ld_segs L)|]. split; [exact (ld_relaid L)|].
  split; [exact (laid_phoff O L F)|]. split; [exact (hl_phnum (ld_fields L))|].
  split; [rewrite (hl_shnum (ld_fields L)); exact (wrap_small _ _ Hnsec)|]. split; [exact (laid_shoff O L F)|].
  split; [exact (ld_start L)|]. split; [exact (ld_congruent L)|]. split; [exact (ld_offset L)|]. split; [exact (ld_vaddr L)|].
  split; [exact (ld_filesz L)|]. split; [exact (ld_memsz L)|]. split; [exact (ld_mchain L)|]. split; [exact (ld_chain L)|].
  destruct (laid_file O L F Hdata) as [D C]. split; [exact D|]. intros Hsmall. destruct (C Hsmall) as ((C1 & C2 & C3) & CP).
  cbv zeta. auto.
Qed.
Print Assumptions C03_one_segment_saved_file.

Theorem C03_sections_plan_is_the_plan :
  forall junk enc h st todo done acc,
    e_shoff h < 2 ^ 63 -> Forall ready todo ->
    sections_plan junk false enc h [] st done todo acc =
      Ok (st, rev_append done [] ++ todo, acc ++ flat_map (sec_writes enc (e_shoff h) (e_shentsize h)) todo).
Proof. exact sections_plan_noseg. Qed.
Print Assumptions C03_sections_plan_is_the_plan.

(* THE FUNCTION save() ITSELF, for objects without segments, from the object as the user built it (or loaded and
   requested it) to the bytes in the stream.  Sections "writable" as they are: offset field within its width, no
   pending load (quiet: the data have been requested once - C09_quiet_after_first_request - or there is nothing to
   load them from), a data buffer that covers the size.  Into a fresh unbounded stream, with no translation table and no compression interface: save()
   returns true, leaves the object the layout step produced, and the stream holds the ELF header at 0, every
   section's header record at e_shoff + e_shentsize * index and every non-empty section's data at its offset,
   verbatim - hence, by the record theorems above, a file that decodes to what was put in. *)
Theorem C03_save_without_segments_end_to_end :
  forall junk el0 h0 bound,
    el_hdr el0 = Some h0 -> el_segs el0 = [] -> el_xlat el0 = [] -> el_compr el0 = false ->
    Forall writable (el_secs el0) ->
    bound <= 2 ^ 63 -> Forall (fun s => bound <= 2 ^ xw (s_cls s)) (el_secs el0) ->
    e_ehsize h0 + budget (el_secs el0) + 16 < bound -> bound <= 2 ^ xw (e_cls h0) ->
    indexed_from 0 (el_secs el0) ->
    (forall s, In s (el_secs el0) -> s_index s = 0 -> csize s = 0) ->
    lenN (e_ident h0) = 16 -> e_ehsize h0 = ehdr_size (e_cls h0) ->
    (forall s, In s (el_secs el0) -> shdr_size (s_cls s) <= e_shentsize h0) ->
    exists el1 h',
      layout el0 = Ok (el1, true) /\ el_hdr el1 = Some h' /\
      (plan_small 0 (noseg_plan h' (el_secs el1)) ->
       exists os,
         save junk el0 (new_ostream None) = Ok (el1, os, true) /\
         let file := os_bytes os in
         sliceN file 0 (ehdr_size (e_cls h')) = ehdr_bytes h' /\
         (forall s, In s (el_secs el1) ->
            sliceN file (e_shoff h' + e_shentsize h' * s_index s) (shdr_size (s_cls s)) = shdr_bytes (e_enc h') s) /\
         (forall s b, In s (el_secs el1) -> csize s <> 0 -> s_data s = Some b ->
            sliceN file (sh_offset s) (sh_size s) = firstnN b (sh_size s))).
Proof.
  intros junk el0 h0 bound Hh Hs Hx Hcm W Hb Hc Hbud Hbh Hidx Hnull Hident Heh Hes.
  exact (save_noseg_saved_file junk el0 h0 bound Hh Hs Hx Hcm W Hb Hc Hbud Hbh (Build_writes_ok h0 _ Hidx Hes Hnull Hident Heh)).
Qed.
Print Assumptions C03_save_without_segments_end_to_end.

(* ... and for objects with ONE segment of automatically addressed members plus sections outside it (the class of
   C03_one_segment_saved_file), whose segment has been asked for its data once: save() returns true, leaves the
   object the layout produced, and the stream holds the ELF header, the program header record, every section header
   record and every section's data verbatim at their places *)
Theorem C03_save_with_one_segment_end_to_end :
  forall junk el h0 g bound ms,
    let idxs := g_sections g in
    let align := if 0 <? p_align g then p_align g else 1 in
    let secs := el_secs el in
    let pos0 := e_ehsize h0 + e_phentsize h0 in
    el_hdr el = Some h0 -> el_segs el = [g] -> lenN secs < 2 ^ 16 ->
    lenN idxs < 2 ^ 16 -> idxs <> [] -> g_offset_set g = false -> p_type g <> PT_PHDR -> NoDup idxs ->
    Forall2 (fun i s => nth_optN secs i = Some s) idxs ms ->
    Forall auto_member ms -> Forall (fun s => sh_addralign s <= p_align g) ms ->
    bound <= 2 ^ 63 -> Forall (fun s => bound <= 2 ^ xw (s_cls s)) secs -> bound <= 2 ^ xw (g_cls g) ->
    bound <= 2 ^ xw (e_cls h0) -> p_align g < 2 ^ 63 ->
    p_vaddr g + pos0 + align + mbudget ms + budget secs + 16 + e_shentsize h0 * lenN secs < bound ->
    indexed_from 0 secs ->
    (forall s, In s secs -> s_index s = 0 -> csize s = 0) ->
    lenN (e_ident h0) = 16 -> e_ehsize h0 = ehdr_size (e_cls h0) ->
    (forall s, In s secs -> shdr_size (s_cls s) <= e_shentsize h0) ->
    phdr_size (g_cls g) <= e_phentsize h0 -> g_index g = 0 ->
    el_xlat el = [] -> el_compr el = false -> Forall writable secs -> g_loaded g = true ->
    exists el' h' g',
      layout el = Ok (el', true) /\ el_hdr el' = Some h' /\ el_segs el' = [g'] /\
      let plan := oneseg_plan h' (el_secs el') (segments_plan (e_enc h') h' [g']) in
      (plan_small 0 plan ->
       exists os,
         save junk el (new_ostream None) = Ok (el', os, true) /\
         let file := os_bytes os in
         sliceN file 0 (ehdr_size (e_cls h')) = ehdr_bytes h' /\
         sliceN file (e_phoff h') (phdr_size (g_cls g')) = phdr_bytes (e_enc h') g' /\
         (forall s, In s (el_secs el') ->
            sliceN file (e_shoff h' + e_shentsize h' * s_index s) (shdr_size (s_cls s)) = shdr_bytes (e_enc h') s) /\
         (forall s b, In s (el_secs el') -> csize s <> 0 -> s_data s = Some b ->
            sliceN file (sh_offset s) (sh_size s) = firstnN b (sh_size s))).
Proof.
  intros junk el h0 g bound ms. cbv zeta. intros.
  assert (O : oneseg el h0 g bound ms) by (constructor; try assumption; lia).
  assert (F : oneseg_file el h0 g bound ms) by (constructor; try assumption; constructor; assumption).
  destruct (save_oneseg_end_to_end junk el h0 g bound ms O F) as (el' & h' & g' & L1 & L2 & L3 & K); try assumption.
  exists el', h', g'. split; [exact L1|]. split; [exact L2|]. split; [exact L3|]. intros Hsmall.
  destruct (K Hsmall) as (os & E & (C1 & C2 & C3) & CP). exists os. cbv zeta. auto.
Qed.
Print Assumptions C03_save_with_one_segment_end_to_end.

(* non-vacuity: an ELF32 object with the null section and a 5-byte program section meets every premise, and save()
   of it evaluates to true with a 144-byte file *)
Definition ex_sv_secs : list section :=
  map (fun s => with_load_flags s false true true)      (* their data have been requested once *)
  [with_index (new_section C32) 0;
   with_index (with_data (with_size (with_addralign (with_type (new_section C32) 1) 4) 5) (Some [1; 2; 3; 4; 5]) 5) 1].
Definition ex_sv_el : elfio := with_secs (with_hdr (empty_elfio false) (Some (new_header C32 LSB))) ex_sv_secs.
Example C03_save_example :
  Forall writable (el_secs ex_sv_el) /\ indexed_from 0 (el_secs ex_sv_el) /\
  e_ehsize (new_header C32 LSB) + budget (el_secs ex_sv_el) + 16 < 2 ^ 32 /\
  match save (fun _ => 0) ex_sv_el (new_ostream None) with
  | Ok (_, os, ok) => ok = true /\ lenN (os_bytes os) = 144 /\ sliceN (os_bytes os) 52 5 = [1; 2; 3; 4; 5]
  | Fault _ => False
  end.
Proof.
  split.
  { change (el_secs ex_sv_el) with ex_sv_secs. unfold ex_sv_secs. cbn [map].
    apply Forall_cons; [|apply Forall_cons; [|apply Forall_nil]]; (split; [vm_compute; reflexivity|split; [vm_compute; reflexivity|]]); intros b Hb.
    - discriminate Hb.
    - injection Hb as <-. vm_compute. discriminate. }
  split; [vm_compute; auto|]. split; [vm_compute; reflexivity|]. vm_compute. repeat split; reflexivity.
Qed.

Definition ex_plan : list (N * bytes) := [(0, [1; 2; 3; 4]); (8, [5; 6]); (2, [9])].
Example C03_example :
  os_bytes (exec_plan (new_ostream None) ex_plan) = [1; 2; 9; 4; 0; 0; 0; 0; 5; 6] /\
  sliceN (os_bytes (exec_plan (new_ostream None) ex_plan)) 8 2 = [5; 6] /\ plan_small 0 ex_plan.
Proof. vm_compute. repeat split; reflexivity. Qed.
