(* Prefix_proofs.v — C17: what a truncated file yields.  Loading a prefix of a file either fails or reports exactly
   the header the complete file reports; a section header table entry is reported as in the complete file or as an
   empty section; a cut program header entry stops the load. *)
From ElfioV Require Import Bytes Mem Stream SectionData Strings Elfio Table Loader Load_proofs Codec_proofs Reader_proofs.
From Coq Require Import ZifyBool ZifyN ZifyNat.
Local Open Scope N_scope.

Lemma ehdr_size_ge c : 52 <= ehdr_size c.
Proof. destruct c; vm_compute; discriminate. Qed.

Lemma parse_header_prefix (f : bytes) n h : parse_header (firstnN f n) = Some h -> parse_header f = Some h.
Proof.
  unfold parse_header. rewrite firstnN_firstnN.
  destruct (N.eqb_spec (lenN (firstnN f (N.min 16 n))) 16) as [E16|]; cbn [negb]; [|discriminate].
  rewrite lenN_firstnN in E16.
  assert (Hn : 16 <= n) by lia. assert (Hf : 16 <= lenN f) by lia.
  replace (N.min 16 n) with 16 by lia.
  destruct (N.eqb_spec (lenN (firstnN f 16)) 16) as [_|X]; [|rewrite lenN_firstnN in X; lia]. cbn [negb].
  destruct (negb (_ && _ && _ && _)); [discriminate|].
  destruct (negb ((nthN (firstnN f 16) 4 0 =? 2) || _)); [discriminate|].
  destruct (negb ((nthN (firstnN f 16) 5 0 =? 1) || _)); [discriminate|].
  set (c := if nthN (firstnN f 16) 4 0 =? 2 then C64 else C32).
  rewrite lenN_firstnN.
  destruct (N.ltb_spec (N.min n (lenN f)) (ehdr_size c)); [discriminate|].
  destruct (N.ltb_spec (lenN f) (ehdr_size c)); [lia|].
  rewrite firstnN_firstnN. replace (N.min (ehdr_size c) n) with (ehdr_size c) by lia. auto.
Qed.

(* a table entry that is not completely inside the stream reads as an empty section: every field zero *)
Definition hdr_all_zero (r : section) : Prop :=
  sh_name r = 0 /\ sh_type r = 0 /\ sh_flags r = 0 /\ sh_addr r = 0 /\ sh_offset r = 0 /\ sh_size r = 0 /\
  sh_link r = 0 /\ sh_info r = 0 /\ sh_addralign r = 0 /\ sh_entsize r = 0 /\ s_data r = None.

Lemma zero_header_fields c enc idx ss lazy :
  let s0 := with_index (new_section c) idx in
  let z := sec_with_raw enc (with_stream_size s0 ss) (repeatN 0 (shdr_size (s_cls s0))) in
  hdr_all_zero (with_load_flags z lazy (s_loaded z) (s_can_load z)).
Proof. destruct c, enc; repeat split. Qed.
Lemma zero_with_addr r : hdr_all_zero r -> hdr_all_zero (with_addr r (sh_addr r)).
Proof.
  intros Z. pose proof Z as (_ & _ & _ & Z4 & _). unfold hdr_all_zero. cbn. rewrite Z4. unfold wrap.
  rewrite N.mod_0_l by (apply N.pow_nonzero; discriminate). unfold hdr_all_zero in Z. intuition.
Qed.

Section WithEnv.
  Variable junk : N -> N.

  Theorem load_fails_without_header el k content lazy :
    xlat_empty (el_xlat el) = true -> parse_header content = None ->
    exists el' al, load junk el k content lazy = Ok (el', false, al).
  Proof.
    intros Hx Hp. pose proof (load_plain junk el k content lazy Hx) as H. rewrite Hp in H.
    destruct H as (r & st & ->). eauto.
  Qed.

  Theorem section_load_cut_entry_is_empty st enc c idx (pos : N) lazy :
    is_fail st = false -> st_inv st -> lenN (is_content st) < pos + shdr_size c ->
    exists st' r,
      section_load junk st [] enc (with_index (new_section c) idx) (Z.of_N pos) lazy = Ok (st', r, []) /\
      st_same st st' /\ hdr_all_zero r.
  Proof.
    intros Hf Hi Hout. rewrite section_load_unfold.
    destruct (open_entry_plain st pos (shdr_size c) Hf Hi) as (st3 & E & SS & _).
    unfold section_load_rest. change (s_cls (with_index (new_section c) idx)) with c. rewrite E.
    destruct (N.eqb_spec (lenN (sliceN (is_content st) pos (shdr_size c))) (shdr_size c)) as [El|_];
      [rewrite lenN_sliceN in El; destruct c; cbn [shdr_size] in *; lia|].
    cbn [negb]. eexists _, _. split; [reflexivity|]. split; [exact SS|apply zero_header_fields].
  Qed.

  Lemma section_load_failed_is_empty st enc c idx pos lazy :
    is_fail st = true ->
    exists r, section_load junk st [] enc (with_index (new_section c) idx) pos lazy = Ok (st, r, []) /\ hdr_all_zero r.
  Proof.
    intros Hf. rewrite section_load_unfold. destruct (open_entry_failed st [] pos (shdr_size c) Hf) as (ss & E).
    unfold section_load_rest. change (s_cls (with_index (new_section c) idx)) with c. rewrite E.
    destruct (N.eqb_spec (lenN (@nil N)) (shdr_size c)) as [El|_]; [destruct c; discriminate El|]. cbn [negb].
    eexists. split; [reflexivity|apply zero_header_fields].
  Qed.

  Lemma section_load_of_prefix st enc (f : bytes) n idx (pos : N) lazy s :
    st_inv st -> is_content st = firstnN f n -> shdr_wf s ->
    pos + shdr_size (s_cls s) <= lenN f -> sliceN f pos (shdr_size (s_cls s)) = shdr_bytes enc s ->
    exists st1 r al,
      section_load junk st [] enc (with_index (new_section (s_cls s)) idx) (Z.of_N pos) lazy = Ok (st1, r, al) /\
      st_same st st1 /\ ((same_hdr s r /\ s_cls r = s_cls s) \/ hdr_all_zero r).
  Proof.
    intros Hi Hc Hw Hin Hsl. destruct (is_fail st) eqn:Hf.
    { destruct (section_load_failed_is_empty st enc (s_cls s) idx (Z.of_N pos) lazy Hf) as (r & E & Z).
      exists st, r, []. auto using st_same_refl. }
    destruct (N.le_gt_cases (pos + shdr_size (s_cls s)) n) as [Hle|Hgt].
    - destruct (section_load_intact junk st enc (s_cls s) idx pos lazy s Hf Hi) as (st1 & r & al & E & SS & SH & _ & CL);
        [rewrite Hc, lenN_firstnN; lia|reflexivity|exact Hw|rewrite Hc, sliceN_prefix by exact Hle; exact Hsl|].
      exists st1, r, al. auto.
    - destruct (section_load_cut_entry_is_empty st enc (s_cls s) idx pos lazy Hf Hi) as (st1 & r & E & SS & Z);
        [rewrite Hc, lenN_firstnN; lia|].
      exists st1, r, []. auto.
  Qed.

  (* the whole section header table of a prefix (lazy load, no address translation).  [secs] are encoded entry after
     entry at shoff of the complete file f; the stream holds a prefix of f (any length), in any state.  The loop of
     load_sections reports, index by index, either exactly the encoded header fields or an empty section - never
     anything else *)
  Definition same_or_empty (s r : section) : Prop := same_hdr s r \/ hdr_all_zero r.

  Theorem load_sections_loop_of_prefix enc c shoff es (f : bytes) n : forall (secs : list section) fuel st i racc allocs,
    st_inv st -> is_content st = firstnN f n -> shoff < 2 ^ 62 -> shdr_size c <= es ->
    shoff + (i + lenN secs) * es < 2 ^ 62 ->
    Forall (fun s => s_cls s = c /\ shdr_wf s) secs ->
    (forall k s, nth_optN secs k = Some s -> shoff + (i + k) * es + shdr_size c <= lenN f /\
                                             sliceN f (shoff + (i + k) * es) (shdr_size c) = shdr_bytes enc s) ->
    (length secs <= fuel)%nat ->
    exists st' loaded allocs',
      load_sections_loop junk fuel st [] c enc shoff es i (i + lenN secs) true racc allocs = Ok (st', rev loaded ++ racc, allocs') /\
      st_inv st' /\ is_content st' = firstnN f n /\ Forall2 same_or_empty secs loaded.
  Proof.
    induction secs as [|s t IH]; intros fuel st i racc allocs Hi Hc H62 Hes Hb1 Hwf Hsl Hfuel.
    - cbn [lenN] in *. rewrite N.add_0_r. exists st, [], allocs. cbn [rev app].
      destruct fuel; cbn [load_sections_loop]; [|rewrite N.ltb_irrefl]; repeat split; auto; constructor.
    - rewrite lenN_cons in *. destruct fuel as [|fu]; [cbn in Hfuel; lia|]. cbn [length] in Hfuel.
      inversion Hwf as [|? ? [Hcl Hw] Hwt]; subst.
      cbn [load_sections_loop]. destruct (N.ltb_spec i (i + (1 + lenN t))); [|lia].
      rewrite table_pos_plain by lia.
      destruct (Hsl 0 s eq_refl) as [Hin0 Hs0]. rewrite N.add_0_r in Hin0, Hs0.
      destruct (section_load_of_prefix st enc f n (wrap16 i) (shoff + i * es) true s Hi Hc Hw Hin0 Hs0)
        as (st1 & r & al & -> & SS & SE). cbn [bind].
      replace (i + (1 + lenN t)) with ((i + 1) + lenN t) by lia.
      destruct (IH fu st1 (i + 1) (with_addr r (sh_addr r) :: racc) (al ++ allocs) (st_same_inv _ _ SS Hi) (eq_trans (proj1 SS) Hc) H62 Hes)
        as (st' & loaded & allocs' & -> & I' & C' & H2); [lia|exact Hwt| |lia|].
      + intros k s' Hk. replace (i + 1 + k) with (i + (k + 1)) by lia. apply Hsl. now rewrite nth_optN_succ.
      + exists st', (with_addr r (sh_addr r) :: loaded), allocs'. cbn [rev]. rewrite <- app_assoc. cbn [app].
        split; [reflexivity|]. split; [exact I'|]. split; [exact C'|]. constructor; [|exact H2].
        destruct SE as [[SH CL]|Z]; [left; now apply same_hdr_with_addr|right; now apply zero_with_addr].
  Qed.
End WithEnv.

Lemma seg_load_data_keeps_failure st0 t g sto g1 ok al :
  is_fail st0 = true -> seg_load_data (Some st0) t g = Ok (sto, g1, ok, al) -> sto = Some st0.
Proof.
  intros Hf H. unfold seg_load_data in H.
  destruct (_ || _); [now injection H as <- _ _ _|].
  destruct (_ <? _); [now injection H as <- _ _ _|].
  destruct (_ || _); [now injection H as <- _ _ _|].
  destruct (_ <? _); [now injection H as <- _ _ _|].
  rewrite (seekg_failed st0 _ Hf), (read_failed st0 _ Hf), Hf in H. now injection H as <- _ _ _.
Qed.

(* a program header entry that is not completely inside the stream leaves the stream failed ... *)
Theorem segment_load_cut_entry_fails st enc c (pos : N) lazy st1 g1 ok al :
  is_fail st = false -> st_inv st -> pos < 2 ^ 63 -> lenN (is_content st) < pos + phdr_size c ->
  segment_load st [] enc (new_segment c) (Z.of_N pos) lazy = Ok (st1, g1, ok, al) -> is_fail st1 = true.
Proof.
  intros Hf Hi _ Hout H. rewrite segment_load_unfold in H.
  destruct (open_entry_plain st pos (phdr_size c) Hf Hi) as (st3 & E & _ & _ & F3).
  change (g_cls (new_segment c)) with c in H. rewrite E in H. unfold segment_load_rest in H.
  specialize (F3 Hout ltac:(destruct c; reflexivity)).
  destruct (lazy || _); [now injection H as <- _ _ _|].
  destruct (seg_load_data (Some st3) [] _) as [[[[sto g2] ok2] al2]|] eqn:El; cbn [bind] in H; [|discriminate].
  rewrite (seg_load_data_keeps_failure _ _ _ _ _ _ _ F3 El) in H. now injection H as <- _ _ _.
Qed.

(* ... and the segment loop stops there with "not good": load() reports failure, nothing of the entry is kept *)
Theorem load_segments_cut_entry_fails fuel st secs enc c offset entsize i num lazy racc allocs :
  is_fail st = false -> st_inv st -> i < num ->
  table_pos offset i entsize = Z.of_N (Z.to_N (table_pos offset i entsize)) ->
  Z.to_N (table_pos offset i entsize) < 2 ^ 63 ->
  lenN (is_content st) < Z.to_N (table_pos offset i entsize) + phdr_size c ->
  forall r, load_segments_loop (S fuel) st [] secs enc c offset entsize i num lazy racc allocs = Ok r ->
  snd (fst r) = false /\ snd (fst (fst r)) = racc.
Proof.
  intros Hf Hi Hlt Hpos Hp Hout r H. cbn [load_segments_loop] in H.
  destruct (N.ltb_spec i num); [|lia].
  destruct (segment_load st [] enc (new_segment c) (table_pos offset i entsize) lazy) as [[[[st1 g1] ok] al]|] eqn:E;
    cbn [bind] in H; [|discriminate].
  rewrite Hpos in E. pose proof (segment_load_cut_entry_fails _ _ _ _ _ _ _ _ _ Hf Hi Hp Hout E) as F1.
  rewrite F1, orb_true_r in H. injection H as <-. split; reflexivity.
Qed.
