(* Reloc_swap.v — C11: swap_symbols( first, second ) applies the exchange to the
   symbol index of every entry of the table and changes nothing else. *)
From ElfioV Require Import Bytes Mem SectionData SectionData_proofs Elfio Table Accessors Arrange_proofs Reloc_proofs.
Local Open Scope N_scope.

Definition with_sym (r : rel_entry) (y : N) : rel_entry := mkRelEntry (re_offset r) y (re_type r) (re_addend r).
Definition swap_entry (a b : N) (r : rel_entry) : rel_entry := with_sym r (swap1 a b (re_symbol r)).

Lemma with_sym_same r : with_sym r (re_symbol r) = r.
Proof. destruct r; reflexivity. Qed.

Lemma wrap_sext c x : x < 2 ^ xw c -> wrap (xw c) (sext (xw c) x) = x.
Proof.
  intros H. unfold sext. destruct (x <? _); [now apply wrap_small|].
  (* what is added is a multiple of 2^w, and the sum stays below 2^64 *)
  unfold wrap64. rewrite (wrap_small 64) by (destruct c; cbn [xw] in *; lia). unfold wrap.
  replace (2 ^ 64 - 2 ^ xw c) with ((2 ^ (64 - xw c) - 1) * 2 ^ xw c) by now destruct c.
  rewrite N.mod_add by (apply N.pow_nonzero; discriminate). now apply N.mod_small.
Qed.

(* set_entry is handed the values get_entry reported: the entry it writes is the
   old entry with the new symbol *)
Lemma rel_enc_view c e is_rela r y :
  let v := rel_view c is_rela r in
  rel_enc c e is_rela (mkRelEntry (rv_offset v) y (rv_type v) (rv_addend v)) = rel_enc c e is_rela (with_sym r y).
Proof.
  cbv zeta. unfold rel_enc, enc_rel, rel_view, with_sym. cbn [re_offset re_symbol re_type re_addend rv_offset rv_type rv_addend].
  rewrite wrap_wrap. destruct is_rela; [|reflexivity]. now rewrite wrap_sext by apply wrap_lt.
Qed.

Lemma sym_fits_32 c y : sym_fits c y -> wrap32 y = y.
Proof.
  intros H. apply wrap_small. destruct c; [|exact H]. eapply N.lt_trans; [exact H|reflexivity].
Qed.

Lemma rel_sec_wlf {c e is_rela sz es s} l cl : rel_sec c e is_rela sz es s -> rel_sec c e is_rela sz es (wlf s l cl).
Proof. intros H. exact (mk_rel_sec c e is_rela sz es (wlf s l cl) (rs_table H) (rs_cls H) (rs_type H) (rs_entsize H) (rs_size H)). Qed.

Section Swap.
  Variable junk : N -> N.
  Variable el0 : elfio.
  Variable relsec : N.
  Variable c : cls.
  Variable e : endian.
  Variable is_rela : bool.
  Variable sz : N.
  Hypothesis Hrel : relsec < lenN (el_secs el0).
  Hypothesis Hc : acls el0 = c.
  Hypothesis He : el_enc el0 = e.
  Hypothesis Hsz : sz < size_bound c.

  Definition rel_state (es : list rel_entry) (el : elfio) : Prop :=
    exists s, el = upd_sec el0 relsec s /\ rel_sec c e is_rela sz es s.

  Lemma get_step es el i r : rel_state es el -> nth_optN es i = Some r -> rel_fits c r ->
    exists el1, rel_get_entry junk el relsec i = Ok (el1, Some (rel_view c is_rela r)) /\ rel_state es el1.
  Proof.
    intros (s & -> & Hs) Hn Hf. pose proof (rs_table Hs) as H.
    destruct (table_data_some _ _ (rel_enc_len c e is_rela) H Hn (rel_esz_pos c is_rela)) as [tl Eb].
    unfold rel_get_entry. rewrite (get_upd_sec _ _ _ Hrel), acls_upd_sec, Hc.
    replace (rel_needs_data c s i) with true.
    2:{ unfold rel_needs_data. rewrite (rel_num_table c e is_rela s es H (rs_entsize Hs)), (rs_type Hs), (rs_entsize Hs).
        rewrite (proj2 (N.leb_gt _ _) (nth_optN_lt _ _ _ Hn)). now destruct is_rela, c. }
    destruct (sec_data_resident junk _ relsec s _ (get_upd_sec _ _ _ Hrel) Eb) as (l & cl & ->). cbn [bind].
    rewrite upd_sec_upd_sec, acls_upd_sec, el_enc_upd_sec, Hc, He.
    rewrite (rel_roundtrip c e is_rela sz s es i r Hs Hsz Hn Hf). cbn [bind].
    eexists. split; [reflexivity|]. exists (wlf s l cl). split; [reflexivity|exact (rel_sec_wlf l cl Hs)].
  Qed.

  Lemma set_step es el i r off y ty ad : rel_state es el -> nth_optN es i = Some r ->
    exists el1, rel_set_entry junk el relsec i off y ty ad = Ok (el1, true) /\
                rel_state (updN es i (mkRelEntry off y ty ad)) el1.
  Proof.
    intros (s & -> & Hs) Hn. pose proof (rs_table Hs) as H.
    destruct (table_data_some _ _ (rel_enc_len c e is_rela) H Hn (rel_esz_pos c is_rela)) as [tl Eb].
    unfold rel_set_entry. rewrite (get_upd_sec _ _ _ Hrel), (rel_num_table c e is_rela s es H (rs_entsize Hs)).
    rewrite (proj2 (N.leb_gt _ _) (nth_optN_lt _ _ _ Hn)).
    destruct (rel_type_tests is_rela _ (rs_type Hs)) as [-> ->]. rewrite orb_negb_l. cbn [negb].
    destruct (sec_data_resident junk _ relsec s _ (get_upd_sec _ _ _ Hrel) Eb) as (l & cl & ->). cbn [bind].
    rewrite upd_sec_upd_sec, acls_upd_sec, el_enc_upd_sec, Hc, He.
    destruct (rel_set_changes_only_that_entry c e is_rela sz (wlf s l cl) es i r (mkRelEntry off y ty ad) (rel_sec_wlf l cl Hs) Hsz Hn)
      as (b' & Eset & Hs').
    cbn [re_offset re_symbol re_type re_addend] in Eset.
    change (rel_set_core c e s (s_data s) i off y ty ad = Ok (Some b')) in Eset.
    rewrite Eset. cbn [bind]. rewrite upd_sec_upd_sec.
    eexists. split; [reflexivity|]. eexists. split; [reflexivity|exact Hs'].
  Qed.

  Lemma rel_state_enc_eq l1 r' r'' l2 el : rel_enc c e is_rela r' = rel_enc c e is_rela r'' ->
    rel_state (l1 ++ r' :: l2) el -> rel_state (l1 ++ r'' :: l2) el.
  Proof.
    intros Heq (s & -> & Hs). exists s. split; [reflexivity|].
    apply (rel_sec_same_bytes _ (es := l1 ++ r' :: l2)); [|exact Hs]. rewrite !concat_enc_split. now rewrite Heq.
  Qed.

  (* a guarded set_entry with the attributes get_entry reported for r *)
  Lemma set_if (t : bool) y l1 r r' l2 el : sym_fits c y -> rel_state (l1 ++ r' :: l2) el ->
    let v := rel_view c is_rela r in
    exists el' x,
      (if t then rel_set_entry junk el relsec (lenN l1) (rv_offset v) (wrap32 y) (rv_type v) (rv_addend v)
       else Ok (el, true)) = Ok (el', x) /\
      rel_state (l1 ++ (if t then with_sym r y else r') :: l2) el'.
  Proof.
    intros Hy H0. cbv zeta. destruct t; [|eauto]. rewrite (sym_fits_32 c y Hy).
    destruct (set_step _ el (lenN l1) r' (rv_offset (rel_view c is_rela r)) y (rv_type (rel_view c is_rela r))
                (rv_addend (rel_view c is_rela r)) H0 (nth_optN_mid l1 r' l2)) as (el' & E & H1).
    rewrite updN_mid in H1. exists el', true. split; [exact E|].
    exact (rel_state_enc_eq _ _ _ _ _ (rel_enc_view c e is_rela r y) H1).
  Qed.

  Lemma swap_loop_spec a b : sym_fits c a -> sym_fits c b ->
    forall l2 l1 fuel el last,
      rel_state (l1 ++ l2) el -> Forall (rel_fits c) l2 -> (length l2 <= length fuel)%nat -> lenN (l1 ++ l2) < 2 ^ 32 ->
      exists el', swap_loop junk fuel el relsec a b (lenN l1) last = Ok el' /\
                  rel_state (l1 ++ map (swap_entry a b) l2) el'.
  Proof.
    intros Ha Hb. induction l2 as [|r l2 IH]; intros l1 fuel el last H0 Hf Hfu Hlen;
      pose proof H0 as (s & Eel & Hs);
      pose proof (rel_num_table c e is_rela s _ (rs_table Hs) (rs_entsize Hs)) as Hnum; rewrite lenN_app in Hnum.
    - subst el. destruct fuel; cbn [swap_loop]; rewrite (get_upd_sec _ _ _ Hrel), Hnum; cbn [lenN];
        rewrite N.add_0_r, N.ltb_irrefl; eauto.
    - destruct fuel as [|f0 fuel]; [cbn [length] in Hfu; lia|]. inversion Hf as [|? ? Hr Hf2]; subst.
      cbn [swap_loop]. rewrite (get_upd_sec _ _ _ Hrel), Hnum, lenN_cons, (proj2 (N.ltb_lt _ _)) by lia.
      destruct (get_step _ _ (lenN l1) r H0 (nth_optN_mid l1 r l2) Hr) as (el1 & -> & H1). cbn [bind]. cbv zeta.
      change (rv_symbol (rel_view c is_rela r)) with (re_symbol r).
      destruct (set_if (re_symbol r =? a) b l1 r r l2 el1 Hb H1) as (el2 & x1 & -> & H2). cbn [bind].
      destruct (set_if (re_symbol r =? b) a l1 r _ l2 el2 Ha H2) as (el3 & x2 & -> & H3). cbn [bind].
      assert (H3' : rel_state (l1 ++ swap_entry a b r :: l2) el3).
      { replace (swap_entry a b r) with
          (if re_symbol r =? b then with_sym r a else if re_symbol r =? a then with_sym r b else r); [exact H3|].
        unfold swap_entry, swap1.
        destruct (N.eqb_spec (re_symbol r) a), (N.eqb_spec (re_symbol r) b); try reflexivity; [congruence|].
        symmetry. apply with_sym_same. }
      rewrite lenN_app, lenN_cons in Hlen.
      replace (wrap32 (lenN l1 + 1)) with (lenN (l1 ++ [swap_entry a b r]))
        by (rewrite lenN_app; symmetry; apply wrap_small; cbn [lenN]; lia).
      specialize (IH (l1 ++ [swap_entry a b r]) fuel el3 (rel_view c is_rela r)).
      rewrite <- !app_assoc in IH. apply IH; [exact H3'|exact Hf2|cbn [length] in Hfu; lia|].
      rewrite !lenN_app. exact Hlen.
  Qed.
End Swap.

Lemma swap_symbols_ok junk el relsec s c e is_rela sz es a b :
  get_sec el relsec = Some s -> acls el = c -> el_enc el = e ->
  rel_sec c e is_rela sz es s -> sz < size_bound c -> lenN es < 2 ^ 32 ->
  Forall (rel_fits c) es -> sym_fits c a -> sym_fits c b ->
  exists s', swap_symbols junk el relsec a b = Ok (upd_sec el relsec s') /\
    rel_sec c e is_rela sz (map (swap_entry a b) es) s'.
Proof.
  intros Hg Hc He Hs HB Hlen Hf Ha Hb.
  unfold swap_symbols. rewrite Hg.
  edestruct (swap_loop_spec junk el relsec c e is_rela sz (get_sec_lt _ _ _ Hg) Hc He HB a b Ha Hb es [])
    as (el' & E' & s' & -> & Hs');
    [exists s; split; [symmetry; now apply upd_sec_same|exact Hs]|exact Hf| |exact Hlen|exists s'; split; [exact E'|exact Hs']].
  (* one unit of fuel per byte of the buffer, and entries are not empty *)
  pose proof (table_size _ _ (rel_enc_len c e is_rela) (rs_table Hs)) as HL.
  pose proof (rel_esz_pos c is_rela) as Hp. destruct (proj1 (Inv_iff s) (rel_sec_Inv Hs)) as (_ & _ & D1 & D2).
  clear - HL Hp D1 D2. rewrite lenN_length in HL.
  destruct (s_data s); cbn [pbuf lenN length] in *; rewrite ?lenN_length in D2; nia.
Qed.

Lemma swap_entry_involutive a b r : swap_entry a b (swap_entry a b r) = r.
Proof. unfold swap_entry, with_sym. cbn [re_symbol re_offset re_type re_addend]. rewrite swap1_involutive. destruct r; reflexivity. Qed.

Lemma swap_entries_twice a b es : map (swap_entry a b) (map (swap_entry a b) es) = es.
Proof. rewrite map_map. rewrite <- (map_id es) at 2. apply map_ext. intros r. apply swap_entry_involutive. Qed.

Lemma swap1_fits c a b x : sym_fits c a -> sym_fits c b -> sym_fits c x -> sym_fits c (swap1 a b x).
Proof. intros Ha Hb Hx. unfold swap1. destruct (x =? a); [exact Hb|]. destruct (x =? b); [exact Ha|exact Hx]. Qed.

Lemma swap_entry_fits c a b r : sym_fits c a -> sym_fits c b -> rel_fits c r -> rel_fits c (swap_entry a b r).
Proof. intros Ha Hb [Hs Ht]. split; [now apply swap1_fits|exact Ht]. Qed.

(* a whole swap log (what arrange_local_symbols' callback forwards) *)
Definition retarget_entry (log : list (N * N)) (r : rel_entry) : rel_entry := with_sym r (retarget log (re_symbol r)).

Lemma retarget_entry_fields log x :
  re_offset (retarget_entry log x) = re_offset x /\ re_type (retarget_entry log x) = re_type x /\
  re_addend (retarget_entry log x) = re_addend x.
Proof. repeat split. Qed.

Definition apply_log junk (relsec : N) (log : list (N * N)) (start : res elfio) : res elfio :=
  fold_left (fun acc pr => e <- acc ;; swap_symbols junk e relsec (fst pr) (snd pr)) log start.

Lemma retarget_entry_fits c log r : Forall (fun p => sym_fits c (fst p) /\ sym_fits c (snd p)) log ->
  rel_fits c r -> rel_fits c (retarget_entry log r).
Proof.
  intros Hl [Hs Ht]. split; [|exact Ht]. unfold retarget_entry, with_sym, retarget. cbn [re_symbol].
  revert Hs. generalize (re_symbol r). induction Hl as [|p t [Ha Hb] _ IH]; intros x Hx; cbn [fold_left]; [exact Hx|].
  apply IH. now apply swap1_fits.
Qed.

Theorem swap_log_spec junk c e is_rela relsec sz log : sz < size_bound c ->
  Forall (fun p => sym_fits c (fst p) /\ sym_fits c (snd p)) log ->
  forall el s es,
  get_sec el relsec = Some s -> acls el = c -> el_enc el = e ->
  rel_sec c e is_rela sz es s -> lenN es < 2 ^ 32 -> Forall (rel_fits c) es ->
  exists s',
    apply_log junk relsec log (Ok el) = Ok (upd_sec el relsec s') /\
    rel_sec c e is_rela sz (map (retarget_entry log) es) s'.
Proof.
  intros HB Hl. unfold apply_log. induction Hl as [|p t [Ha Hb] Ht IH]; intros el s es Hg Hc He Hs Hlen Hf; cbn [fold_left bind].
  - exists s. rewrite (upd_sec_same _ _ _ Hg). split; [reflexivity|].
    rewrite (map_ext _ id), map_id; [exact Hs|]. intros r. apply with_sym_same.
  - destruct (swap_symbols_ok junk el relsec s c e is_rela sz es (fst p) (snd p) Hg Hc He Hs HB Hlen Hf Ha Hb) as (s1 & -> & Hs1).
    destruct (IH (upd_sec el relsec s1) s1 (map (swap_entry (fst p) (snd p)) es)) as (s' & -> & Hs'); try assumption.
    + apply get_upd_sec, (get_sec_lt _ _ _ Hg).
    + now rewrite lenN_map.
    + rewrite Forall_map. eapply Forall_impl; [|exact Hf]. intros r. now apply swap_entry_fits.
    + exists s'. rewrite upd_sec_upd_sec, map_map in *. split; [reflexivity|exact Hs'].
Qed.
