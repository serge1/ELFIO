(* Properties_C13.v — C13: notes; out-of-range indices are refused. *)
From ElfioV Require Import Bytes Mem Stream SectionData SectionData_proofs Strings Elfio Table Accessors Notes_proofs.
From Coq Require Import ZifyBool ZifyN ZifyNat.
Local Open Scope N_scope.

(* asking for a note index that does not exist returns false without touching
   anything: no memory access, no change of the object *)
Theorem C13_out_of_range_refused :
  forall junk el a i, lenN (na_starts a) <= wrap32 i -> note_get junk el a i = Ok (el, None).
Proof.
  intros junk el a i H. unfold note_get.
  destruct (N.leb_spec (lenN (na_starts a)) (wrap32 i)); [reflexivity|lia].
Qed.
Print Assumptions C13_out_of_range_refused.

(* ABI encoding: namesz (with terminator), descsz, type, then name and
   descriptor each padded to four bytes *)
Theorem C13_encoding_shape :
  forall e ty name desc, lenN name + 1 < 2 ^ 32 -> lenN desc < 2 ^ 32 ->
    exists rest,
      enc_note e ty name desc =
        enc_uint e 4 (lenN name + 1) ++ enc_uint e 4 (lenN desc) ++ enc_uint e 4 (wrap32 ty) ++ name ++ [0] ++ rest.
Proof.
  intros e ty name desc Hn Hd. rewrite note_shape by assumption. cbn [enc_fields].
  rewrite <- !app_assoc. eexists. reflexivity.
Qed.
Print Assumptions C13_encoding_shape.

(* a note stored with this encoding anywhere in a section or segment (bytes
   [pre] before it, [post] after it) is returned unchanged when read at its
   start position: type, name, descriptor (absent when empty) and its size *)
Theorem C13_note_returned_unchanged :
  forall e (pre post : bytes) ty name desc size,
    let b := pre ++ enc_note e ty name desc ++ post in
    let pos := lenN pre in
    lenN name + 4 < 2 ^ 32 -> lenN desc + 3 < 2 ^ 32 ->
    pos + lenN (enc_note e ty name desc) <= size -> size < 2 ^ 63 ->
    note_at e (Some b) size pos =
      Ok (Some (mkNoteview (wrap32 ty) name (if lenN desc =? 0 then None else Some desc) (lenN desc))).
Proof.
  intros e pre post ty name desc size b pos. apply note_at_spec with post.
  apply skipnN_mid.
Qed.
Print Assumptions C13_note_returned_unchanged.

(* a new accessor over a table of notes (section or covering segment, whatever
   precedes and follows the table) finds exactly the notes' start positions *)
Theorem C13_walker_finds_every_note :
  forall e (ns : list note3) (pre post : bytes) fuel acc,
    Forall note_small ns ->
    let tblb := concat (map (rec3 e) ns) in
    let size := lenN pre + lenN tblb in
    size < 2 ^ 30 -> lenN ns < lenN fuel ->
    note_walk fuel (Some (pre ++ tblb ++ post)) e size (lenN pre) acc = Ok (acc ++ starts_from e (lenN pre) ns).
Proof.
  intros e ns pre post fuel acc Hs tblb size. apply note_walk_spec with post; [exact Hs| |reflexivity].
  apply skipnN_mid.
Qed.
Print Assumptions C13_walker_finds_every_note.

(* adding notes one after the other (add_note on the section): the section's
   contents become the concatenation of the records and the adding accessor
   records exactly the records' start positions — the positions at which
   C13_note_returned_unchanged reads them back, and which a new accessor's
   walker finds (C13_walker_finds_every_note) *)
Theorem C13_add_note_bookkeeping :
  forall (junk : N -> N) (xe : bool) e (ns : list note3) s starts,
    Inv s -> sh_size s + lenN (concat (map (rec3 e) ns)) < size_bound (s_cls s) ->
    exists s', note_adds junk xe e s starts ns = Ok (s', starts ++ starts_from e (sh_size s) ns) /\
      Inv s' /\ contents s' = contents s ++ concat (map (rec3 e) ns) /\ s_cls s' = s_cls s.
Proof. exact note_adds_spec. Qed.
Print Assumptions C13_add_note_bookkeeping.

(* the walker over add_note's output finds the notes; reading them back gives
   the original fields (concrete two-note table, both byte orders) *)
Example C13_example :
  let tbl e := enc_note e 1 [71; 78; 85] [1; 2; 3; 4; 5] ++ enc_note e 3 [] [] in
  (forall e, note_walk (0 :: tbl e) (Some (tbl e)) e (lenN (tbl e)) 0 [] = Ok [0; 24]) /\
  lenN (tbl LSB) = 40.
Proof. split; [intros []; vm_compute; reflexivity|vm_compute; reflexivity]. Qed.
