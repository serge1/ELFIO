(* Oneseg_members.v — C05/C02 for an object with one segment of automatically addressed members: the
   loader's membership rule (seg_members, = filter member_spec), applied to the segment and the sections
   as the writer's layout placed them, gives back exactly the member list the segment was saved with. *)
From ElfioV Require Import Bytes Mem SectionData Elfio Loader Layout Codec_proofs Layout_proofs Segment_proofs
     Writer_proofs Oneseg_proofs Oneseg_writer Reader_proofs.
From Coq Require Import Sorted.
Local Open Scope N_scope.

Definition is_alloc (s : section) : Prop := N.land (sh_flags s) SHF_ALLOC = SHF_ALLOC.
Definition is_tls (s : section) : Prop := N.land (sh_flags s) SHF_TLS = SHF_TLS.

Lemma sorted_ext : forall l1 l2 : list N, StronglySorted N.lt l1 -> StronglySorted N.lt l2 ->
  (forall x, In x l1 <-> In x l2) -> l1 = l2.
Proof.
  induction l1 as [|a l1 IH]; intros l2 S1 S2 H.
  - destruct l2 as [|b l2]; [reflexivity|]. exfalso. apply (proj2 (H b)). now left.
  - destruct l2 as [|b l2]; [exfalso; apply (proj1 (H a)); now left|].
    inversion S1 as [|? ? S1' F1]; subst. inversion S2 as [|? ? S2' F2]; subst.
    rewrite Forall_forall in F1, F2.
    assert (E : a = b).
    { destruct (proj1 (H a) (or_introl eq_refl)) as [E|Hin]; [now symmetry|].
      destruct (proj2 (H b) (or_introl eq_refl)) as [E|Hin']; [exact E|].
      specialize (F1 b Hin'). specialize (F2 a Hin). lia. }
    subst b. f_equal. apply IH; [assumption|assumption|]. intros x. split; intros Hx.
    + destruct (proj1 (H x) (or_intror Hx)) as [E|Hin]; [|exact Hin]. subst x. specialize (F1 a Hx). lia.
    + destruct (proj2 (H x) (or_intror Hx)) as [E|Hin]; [|exact Hin]. subst x. specialize (F2 a Hx). lia.
Qed.

Lemma members_sorted (f : section -> bool) : forall l i, indexed_from i l ->
  StronglySorted N.lt (map s_index (filter f l)) /\ Forall (fun x => i <= x) (map s_index (filter f l)).
Proof.
  induction l as [|s t IH]; intros i Hi; cbn [filter map]; [split; constructor|].
  cbn [indexed_from] in Hi. destruct Hi as [Hi1 Hi2]. destruct (IH _ Hi2) as [A B].
  assert (B' : Forall (fun x => i <= x) (map s_index (filter f t))).
  { eapply Forall_impl; [|exact B]. cbv beta. intros; lia. }
  destruct (f s); cbn [map]; [|split; assumption]. split.
  - constructor; [exact A|]. eapply Forall_impl; [|exact B]. cbv beta. intros; lia.
  - constructor; [lia|exact B'].
Qed.

(* the order: load() lists the members by section index *)
Theorem seg_members_sorted g secs : indexed_from 0 secs -> StronglySorted N.lt (seg_members g secs).
Proof. intros H. rewrite seg_members_exact. exact (proj1 (members_sorted (member_spec g) secs 0 H)). Qed.

Section LaidMembers.
  Context {el : elfio} {h0 : ehdr} {g : segment} {bound : N} {ms : list section}.
  Context {el' : elfio} {h' : ehdr} {g' : segment} {ss pos1 pos2 : N}.
  Hypothesis O : oneseg el h0 g bound ms.
  Hypothesis L : laid el h0 g ms el' h' g' ss pos1 pos2.
  Hypothesis Hidx : indexed_from 0 (el_secs el).
  Hypothesis Htls : p_type g <> PT_TLS.
  Hypothesis Hnz : Forall (fun s => sh_size s <> 0) ms.
  (* the sections outside the segment: thread-local, or allocated below the segment, or not allocated (the null
     section with an offset before the segment) *)
  Hypothesis Hfree : forall j s, ~ In j (g_sections g) -> nth_optN (el_secs el) j = Some s ->
    is_tls s \/ (is_alloc s /\ sh_addr s < p_vaddr g) \/ (~ is_alloc s /\ (s_index s = 0 -> sh_offset s < e_ehsize h0 + e_phentsize h0)).
  Hypothesis Hr1 : p_vaddr g + p_memsz g' < 2 ^ 64.

  Lemma laid_member i s : In i (g_sections g) -> nth_optN (el_secs el') i = Some s -> is_alloc s /\ ~ is_tls s /\ sh_size s <> 0.
  Proof.
    intros Hin Hi. destruct (oneseg_member _ _ _ _ _ O i Hin) as (s0 & Hs0 & P).
    destruct (Forall2_nth_l _ _ _ (ld_relaid L) i s0 P) as (s1 & Hs1 & R). rewrite Hi in Hs1. injection Hs1 as <-.
    pose proof (relaid_size _ _ R) as Rs. pose proof (relaid_flags _ _ R) as Rf.
    pose proof (og_auto O) as Hauto. rewrite Forall_forall in Hauto, Hnz.
    destruct (Hauto s0 Hs0) as (_ & _ & _ & _ & A5 & A6). specialize (Hnz s0 Hs0).
    unfold is_alloc, is_tls. rewrite Rs, Rf. repeat split; assumption.
  Qed.

  Lemma laid_free k s : ~ In k (g_sections g) -> nth_optN (el_secs el') k = Some s ->
    is_tls s \/ (is_alloc s /\ sh_addr s < p_vaddr g) \/ (~ is_alloc s /\ (s_index s = 0 -> sh_offset s < ss)).
  Proof.
    intros Hn Hk.
    assert (Hlt : k < lenN (el_secs el)).
    { rewrite <- (Forall2_lenN _ _ _ (ld_relaid L)). apply (nth_optN_lt _ _ _ Hk). }
    destruct (nth_optN_some (el_secs el) k Hlt) as (x & Hx).
    destruct (ld_others L k Hn Hx) as (s' & Hs' & K). rewrite Hk in Hs'. injection Hs' as <-.
    destruct (Hfree k x Hn Hx) as [T|[(A & Lt)|(NA & Z)]].
    - left. destruct K as [->|[_ ->]]; exact T.
    - right; left. destruct K as [->|[_ ->]]; split; assumption.
    - right; right. destruct K as [->|[Hi0 ->]]; (split; [exact NA|]).
      + intros E0. specialize (Z E0). pose proof (ld_start L). lia.
      + intros E0. cbn in E0. contradiction.
  Qed.

  Lemma member_spec_of_member i s : In i (g_sections g) -> nth_optN (el_secs el') i = Some s -> member_spec g' s = true.
  Proof.
    intros Hin Hs. destruct (laid_member i s Hin Hs) as (Ha & Ht & Hz).
    destruct (mchain_member _ _ _ _ _ _ i (ld_mchain L) Hin) as (s0 & S0 & S1 & S2 & _ & S4 & S5). rewrite Hs in S0. injection S0 as <-.
    destruct (laid_order L) as [B1 _]. pose proof (ld_filesz L). pose proof (ld_memsz L).
    unfold member_spec. unfold is_alloc in Ha. unfold is_tls in Ht. rewrite Ha, N.eqb_refl, (ld_vaddr L), (ld_type L).
    destruct (N.eqb_spec (N.land (sh_flags s) SHF_TLS) SHF_TLS) as [E|_]; [contradiction|].
    destruct (N.eqb_spec (p_type g) PT_TLS) as [E|_]; [contradiction|]. cbn [negb andb orb]. rewrite Bool.andb_true_r.
    unfold wrap64 at 1. rewrite wrap_small by exact Hr1.
    apply is_sect_in_seg_spec; lia.
  Qed.

  Lemma member_spec_of_free j s : ~ In j (g_sections g) -> nth_optN (el_secs el') j = Some s -> member_spec g' s = false.
  Proof.
    intros Hn Hs. unfold member_spec. rewrite (ld_type L).
    destruct (laid_free j s Hn Hs) as [Ht|[(Ha & Hlt)|(Hna & H0)]].
    - unfold is_tls in Ht. rewrite Ht, N.eqb_refl. destruct (N.eqb_spec (p_type g) PT_TLS) as [E|_]; [contradiction|].
      cbn [negb andb orb]. apply Bool.andb_false_r.
    - unfold is_alloc in Ha. rewrite Ha, N.eqb_refl, (ld_vaddr L). unfold is_sect_in_seg.
      destruct (N.leb_spec (p_vaddr g) (sh_addr s)); [lia|]. reflexivity.
    - unfold is_alloc in Hna. destruct (N.eqb_spec (N.land (sh_flags s) SHF_ALLOC) SHF_ALLOC) as [E|_]; [contradiction|].
      rewrite (ld_offset L), (ld_filesz L). destruct (laid_order L) as [B1 B2]. pose proof (laid_pos2 O L). pose proof (og_bound O).
      unfold wrap64 at 1. rewrite wrap_small by lia.
      unfold is_sect_in_seg.
      destruct (N.eq_dec (s_index s) 0) as [E0|E0].
      + specialize (H0 E0). destruct (N.leb_spec ss (sh_offset s)); [lia|]. reflexivity.
      + destruct (free_range g g' (el_secs el') pos1 pos2 (ld_chain L) (ld_sections L) (og_nmem O) j s Hn Hs E0) as (C1 & _).
        destruct (N.ltb_spec (sh_offset s) (ss + (pos1 - ss))); [lia|]. rewrite Bool.andb_false_r. reflexivity.
  Qed.

  Theorem oneseg_member_rule j s : nth_optN (el_secs el') j = Some s -> (member_spec g' s = true <-> In j (g_sections g)).
  Proof.
    intros Hs. destruct (in_dec N.eq_dec j (g_sections g)) as [Hin|Hn].
    - split; [intros _; exact Hin|intros _; now apply (member_spec_of_member j)].
    - rewrite (member_spec_of_free j s Hn Hs). split; [discriminate|contradiction].
  Qed.

  (* what load() would report for the segment: exactly the saved members, in the saved order if that is by index *)
  Theorem laid_members :
    (forall j, In j (seg_members g' (el_secs el')) <-> In j (g_sections g)) /\
    (StronglySorted N.lt (g_sections g) -> seg_members g' (el_secs el') = g_sections g).
  Proof.
    pose proof (indexed_relaid _ _ (ld_relaid L) 0 Hidx) as Hidx'.
    assert (Hiff : forall j, In j (seg_members g' (el_secs el')) <-> In j (g_sections g)).
    2:{ split; [exact Hiff|]. intros Hsorted. apply sorted_ext; [now apply seg_members_sorted|exact Hsorted|exact Hiff]. }
    intro j. rewrite seg_members_exact, in_map_iff. split.
    - intros (s & <- & Hin). apply filter_In in Hin. destruct Hin as [Hin Hsp].
      destruct (In_nth_optN _ _ Hin) as (k & Hk). pose proof (indexed_nth _ _ _ _ Hidx' Hk) as E. rewrite N.add_0_l in E.
      rewrite E. now apply (oneseg_member_rule k s Hk).
    - intros Hin. destruct (mchain_member _ _ _ _ _ _ j (ld_mchain L) Hin) as (s & S0 & _).
      exists s. pose proof (indexed_nth _ _ _ _ Hidx' S0) as E. rewrite N.add_0_l in E. split; [exact E|].
      apply filter_In. split; [now apply nth_optN_In with j|]. now apply (member_spec_of_member j).
  Qed.
End LaidMembers.

