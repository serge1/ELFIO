(* Hash_proofs.v — C18: symbol lookup by name (SysV hash table, GNU hash table,
   linear scan) never faults on a loaded object, whatever the tables contain. *)
From ElfioV Require Import Bytes Mem Stream SectionData Strings Elfio Table Accessors Loader Load_proofs Safety_proofs.
From Coq Require Import ZifyBool ZifyN ZifyNat.
Local Open Scope N_scope.


Lemma rd_word_lt e (b : bytes) off n v : is_bytes b -> rd_word e (Some b) off n = Ok v -> v < 256 ^ N.of_nat n.
Proof.
  intros Hb H. unfold rd_word in H. destruct (rd (Some b) off (N.of_nat n)) as [bs|] eqn:E; [|discriminate].
  cbn [bind] in H. injection H as <-. rewrite <- (rd_ok _ _ _ _ E).
  assert (Hs : is_bytes bs).
  { unfold rd in E. destruct (N.of_nat n =? 0); [injection E as <-; constructor|].
    destruct (off + N.of_nat n <=? lenN b); [|discriminate]. injection E as <-. now apply Forall_firstnN, Forall_skipnN. }
  destruct e; cbn [dec_uint]; [now apply dec_le_lt|].
  rewrite <- lenN_rev. apply dec_le_lt. now apply Forall_rev.
Qed.

Section ElLevel.
  Variable junk : N -> N.
  Variable host : endian.

  Lemma walk_get_total content k el symsec y cur :
    loaded_ok content k el -> has_sec el symsec ->
    exists el1 cur1 fl, walk_get junk el symsec y cur = Ok (el1, cur1, fl) /\ kept content k el el1.
  Proof.
    intros H (s0 & Hg). unfold walk_get.
    destruct (get_symbol_total junk content k el symsec y s0 H Hg) as (el1 & r & -> & K). cbn [bind].
    destruct r; eauto 6.
  Qed.

  Lemma sysv_walk_total content k fuel (hb : bytes) enc name nbucket nchain : forall el symsec y steps cur,
    loaded_ok content k el -> has_sec el symsec ->
    (2 + nbucket + nchain) * 4 <= lenN hb -> nchain < steps + lenN fuel ->
    exists el1 cur1, sysv_walk junk fuel el symsec (Some hb) enc name nbucket nchain y steps cur = Ok (el1, cur1) /\
                     kept content k el el1.
  Proof.
    induction fuel as [|u f IH]; intros el symsec y steps cur H Hs Hsz Hf.
    - cbn [lenN] in Hf. unfold sysv_walk. destruct (N.ltb_spec steps nchain); [lia|]. rewrite andb_false_r.
      eauto using kept_refl.
    - rewrite lenN_cons in Hf. cbn [sysv_walk].
      destruct (negb (bytes_eqb (sv_name cur) name) && negb (y =? 0) && (y <? nchain) && (steps <? nchain)) eqn:Ec;
        [|eauto using kept_refl].
      apply andb_true_iff in Ec. destruct Ec as [Ec _]. apply andb_true_iff in Ec. destruct Ec as [_ Ey].
      apply N.ltb_lt in Ey.
      destruct (rd_word_total enc hb ((2 + nbucket + y) * 4) 4 4 eq_refl) as (y1 & ->); [lia|]. cbn [bind].
      destruct (walk_get_total content k el symsec y1 cur H Hs) as (el1 & cur1 & fl & -> & K). cbn [bind].
      destruct (IH el1 symsec y1 (steps + 1) cur1 (kept_ok K) (has_sec_kept _ _ _ (kept_shape K) Hs) Hsz ltac:(lia)) as (el2 & cur2 & -> & K2).
      eauto using kept_trans.
  Qed.

  Lemma lenN_count_fuel n : n <= 4294967296 -> lenN (count_fuel n) = n + 1.
  Proof. intros H. unfold count_fuel. destruct (N.ltb_spec 4294967296 n); [lia|]. apply lenN_repeatN. Qed.

  (* SysV hash lookup: any table bytes.  The table is taken to be real bytes (every element below 256) only so that
     nchain < 2^32 and count_fuel nchain is long enough for the chain walk *)
  Theorem hash_lookup_total content k el symsec hashsec name s0 h0 :
    loaded_ok content k el -> get_sec el symsec = Some s0 -> get_sec el hashsec = Some h0 ->
    (forall el1 s1 b, sec_data junk el hashsec = Ok (el1, Some b, s1) -> is_bytes b) ->
    exists el1 r, hash_lookup junk el symsec hashsec name = Ok (el1, r) /\ kept content k el el1.
  Proof.
    intros H Hg Hh Hbytes. unfold hash_lookup.
    destruct (sec_data_total junk content k el hashsec h0 H Hh) as (el1 & hs & E & K & G & B & HS).
    specialize (Hbytes el1 hs). rewrite E in *. cbn [bind].
    destruct (s_data hs) as [hb|] eqn:Ed; [|eauto]. specialize (Hbytes hb eq_refl). cbn in B.
    destruct (N.ltb_spec (sh_size hs) 8); [eauto|].
    destruct (rd_word_total (el_enc el1) hb 0 4 4 eq_refl) as (nbucket & Enb); [lia|]. rewrite Enb. cbn [bind].
    destruct (rd_word_total (el_enc el1) hb 4 4 4 eq_refl) as (nchain & Enc); [lia|]. rewrite Enc. cbn [bind].
    pose proof (rd_word_lt _ _ _ _ _ Hbytes Enc) as Hnc. cbn in Hnc.
    destruct (N.eqb_spec nbucket 0) as [|Hnb]; cbn [orb]; [eauto|].
    destruct (N.ltb_spec (sh_size hs) ((2 + nbucket + nchain) * 4)) as [|Hsz]; [eauto|].
    assert (Hmod : elf_hash name mod nbucket < nbucket) by (apply N.mod_lt; exact Hnb).
    destruct (rd_word_total (el_enc el1) hb ((2 + elf_hash name mod nbucket) * 4) 4 4 eq_refl) as (y & ->); [lia|]. cbn [bind].
    pose proof (has_sec_kept _ _ _ (kept_shape K) (ex_intro _ s0 Hg)) as Hs1.
    destruct (walk_get_total content k el1 symsec y empty_view (kept_ok K) Hs1) as (el2 & cur & fl & -> & K2). cbn [bind].
    destruct (sysv_walk_total content k (count_fuel nchain) hb (el_enc el1) name nbucket nchain el2 symsec y 0 cur
                (kept_ok K2) (has_sec_kept _ _ _ (kept_shape K2) Hs1))
      as (el3 & cur1 & -> & K3); [lia|rewrite lenN_count_fuel by lia; lia|].
    cbn [bind]. eexists _, _. split; [reflexivity|]. exact (kept_trans _ _ _ _ _ K (kept_trans _ _ _ _ _ K2 K3)).
  Qed.

  Lemma wrap32_lt v : wrap32 v < 2 ^ 32.
  Proof. apply wrap_lt. Qed.

  Lemma gnu_walk_total content k fuel (hb : bytes) enc name chains_off chains_num symoffset hash : forall el symsec ci ch symname,
    loaded_ok content k el -> has_sec el symsec ->
    chains_off + chains_num * 4 <= lenN hb -> chains_num < 2 ^ 32 -> ci < chains_num ->
    chains_num - ci <= lenN fuel ->
    exists el1 r, gnu_walk junk fuel el symsec (Some hb) enc name chains_off chains_num symoffset hash ci ch symname = Ok (el1, r) /\
                  kept content k el el1.
  Proof.
    induction fuel as [|u f IH]; intros el symsec ci ch symname H Hs Hsz H32 Hci Hf; [cbn [lenN] in Hf; lia|].
    rewrite lenN_cons in Hf. cbn [gnu_walk].
    match goal with |- exists _ _, bind ?X _ = _ /\ _ =>
      assert (Step : exists el1 hit sn, X = Ok (el1, hit, sn) /\ kept content k el el1) end.
    { destruct (N.shiftr ch 1 =? N.shiftr hash 1); [|eauto 6 using kept_refl]. destruct Hs as (s0 & Hg).
      destruct (get_symbol_total junk content k el symsec (wrap32 (ci + symoffset)) s0 H Hg) as (el1 & r & -> & K).
      cbn [bind]. destruct r; eauto 6. }
    destruct Step as (el1 & hit & sn & -> & K). cbn [bind].
    destruct hit; [eauto|]. destruct (N.land ch 1 =? 1); [eauto|].
    unfold wrap32. rewrite (wrap_small 32 (ci + 1)) by lia.
    destruct (N.leb_spec chains_num (ci + 1)); [eauto|].
    destruct (rd_word_total enc hb (chains_off + (ci + 1) * 4) 4 4 eq_refl) as (ch1 & ->); [lia|]. cbn [bind].
    destruct (IH el1 symsec (ci + 1) ch1 sn (kept_ok K) (has_sec_kept _ _ _ (kept_shape K) Hs) Hsz H32 ltac:(lia) ltac:(lia)) as (el2 & r & -> & K2).
    eauto using kept_trans.
  Qed.

  Theorem gnu_hash_lookup_total content k el symsec hashsec name s0 h0 :
    loaded_ok content k el -> get_sec el symsec = Some s0 -> get_sec el hashsec = Some h0 ->
    sh_size h0 < 2 ^ 32 ->
    exists el1 r, gnu_hash_lookup junk el symsec hashsec name = Ok (el1, r) /\ kept content k el el1.
  Proof.
    intros H Hg Hh H32. unfold gnu_hash_lookup.
    destruct (sec_data_total junk content k el hashsec h0 H Hh) as (el1 & hs & E & K & G & B & HS).
    rewrite E. cbn [bind]. rewrite <- (hdr_same_size _ _ HS) in H32.
    destruct (s_data hs) as [hb|] eqn:Ed; [|eauto]. cbn in B.
    destruct (N.ltb_spec (sh_size hs) 16); [eauto|].
    destruct (rd_word_total (el_enc el1) hb 0 4 4 eq_refl) as (nbuckets & ->); [lia|]. cbn [bind].
    destruct (rd_word_total (el_enc el1) hb 4 4 4 eq_refl) as (symoffset & ->); [lia|]. cbn [bind].
    destruct (rd_word_total (el_enc el1) hb 8 4 4 eq_refl) as (bloom_size & ->); [lia|]. cbn [bind].
    destruct (rd_word_total (el_enc el1) hb 12 4 4 eq_refl) as (bloom_shift & ->); [lia|]. cbn [bind].
    set (tb := if class32 el1 then 4 else 8). set (hash := elf_gnu_hash name).
    set (buckets_off := 16 + bloom_size * tb). set (chains_off := buckets_off + nbuckets * 4).
    destruct (N.eqb_spec nbuckets 0) as [|Hnb]; cbn [orb]; [eauto|].
    destruct (N.eqb_spec bloom_size 0) as [|Hbs]; cbn [orb]; [eauto|].
    destruct (32 <=? bloom_shift); cbn [orb]; [eauto|].
    destruct (N.ltb_spec (sh_size hs) chains_off) as [|Hco]; [eauto|].
    set (chains_num := (sh_size hs - chains_off) / 4).
    pose proof (N.mod_lt (hash / (8 * tb)) bloom_size Hbs) as Hbi. set (bi := (hash / (8 * tb)) mod bloom_size) in *.
    pose proof (N.mod_lt hash nbuckets Hnb) as Hbk. set (bk := hash mod nbuckets) in *.
    pose proof (div_mul_le (sh_size hs - chains_off) 4) as Hcn. fold chains_num in Hcn.
    clearbody bi bk chains_num.
    destruct (rd_word_total (el_enc el1) hb (16 + bi * tb) (N.to_nat tb) tb (eq_sym (N2Nat.id tb))) as (bw & ->).
    { apply (slot_inside 16 bi bloom_size tb); [exact Hbi|]. fold buckets_off. lia. }
    cbn [bind]. destruct (negb _); [eauto|].
    destruct (rd_word_total (el_enc el1) hb (buckets_off + bk * 4) 4 4 eq_refl) as (bv & ->).
    { apply (slot_inside buckets_off bk nbuckets 4); [exact Hbk|]. fold chains_off. lia. }
    cbn [bind]. destruct (symoffset <=? bv); [|eauto].
    destruct (N.leb_spec chains_num (wrap32 (bv - symoffset))) as [|Hci]; [eauto|].
    assert (Hcl : chains_off + chains_num * 4 <= lenN hb) by lia.
    destruct (rd_word_total (el_enc el1) hb (chains_off + wrap32 (bv - symoffset) * 4) 4 4 eq_refl) as (ch & ->);
      [exact (slot_inside _ _ _ 4 _ Hci Hcl)|].
    cbn [bind].
    destruct (gnu_walk_total content k (0 :: hb) hb (el_enc el1) name chains_off chains_num symoffset hash el1 symsec
                (wrap32 (bv - symoffset)) ch [] (kept_ok K) (has_sec_kept _ _ _ (kept_shape K) (ex_intro _ s0 Hg)) Hcl ltac:(lia) Hci)
      as (el2 & r & -> & K2); [rewrite lenN_cons; lia|].
    eauto using kept_trans.
  Qed.

  Lemma scan_names_total content k fuel name : forall el symsec i n,
    loaded_ok content k el -> has_sec el symsec -> n <= i + lenN fuel ->
    exists el1 r, scan_names junk fuel el symsec name i n = Ok (el1, r) /\ kept content k el el1.
  Proof.
    induction fuel as [|u f IH]; intros el symsec i n H Hs Hf.
    - cbn [lenN] in Hf. unfold scan_names. destruct (N.ltb_spec i n); [lia|]. eauto using kept_refl.
    - rewrite lenN_cons in Hf. cbn [scan_names]. destruct (N.ltb_spec i n); [|eauto using kept_refl].
      pose proof Hs as (s0 & Hg).
      destruct (get_symbol_total junk content k el symsec i s0 H Hg) as (el1 & r & -> & K). cbn [bind].
      destruct (IH el1 symsec (i + 1) n (kept_ok K) (has_sec_kept _ _ _ (kept_shape K) Hs) ltac:(lia)) as (el2 & r2 & E2 & K2).
      destruct r as [v|]; [destruct (bytes_eqb (sv_name v) name); [eauto|]|]; rewrite E2; eauto using kept_trans.
  Qed.

  Lemma find_hash_sound secs : forall i x hi hs, find_hash secs i x = Some (hi, hs) -> i <= hi /\ nth_optN secs (hi - i) = Some hs.
  Proof.
    induction secs as [|s t IH]; intros i x hi hs H; cbn [find_hash] in H; [discriminate|].
    destruct (_ && _).
    - injection H as <- <-. rewrite N.sub_diag. split; [lia|reflexivity].
    - destruct (IH _ _ _ _ H) as [H1 H2]. split; [lia|]. cbn [nth_optN].
      destruct (N.eqb_spec (hi - i) 0); [lia|]. now replace (hi - i - 1) with (hi - (i + 1)) by lia.
  Qed.

  (* lookup by name: hash table of either kind when one links to the symbol
     table, then the linear scan *)
  Theorem get_symbol_by_name_total content k el symsec name s0 :
    loaded_ok content k el -> get_sec el symsec = Some s0 -> sh_size s0 < 2 ^ 32 ->
    (forall hi hs, find_hash (el_secs el) 0 (s_index s0) = Some (hi, hs) ->
       sh_size hs < 2 ^ 32 /\ (forall el1 s1 b, sec_data junk el hi = Ok (el1, Some b, s1) -> is_bytes b)) ->
    exists el1 r, get_symbol_by_name junk el symsec name = Ok (el1, r) /\ kept content k el el1.
  Proof.
    intros H Hg H32 Hhash. unfold get_symbol_by_name. rewrite Hg. apply kept_bind.
    { destruct (find_hash (el_secs el) 0 (s_index s0)) as [[hi hs]|] eqn:Ef; [|eauto using kept_refl].
      destruct (Hhash hi hs eq_refl) as [Hs32 Hb].
      destruct (find_hash_sound _ _ _ _ _ Ef) as [_ Hn]. rewrite N.sub_0_r in Hn.
      destruct (hi =? 0); [eauto using kept_refl|]. apply kept_bind.
      { destruct (sh_type hs =? SHT_HASH); [|eauto using kept_refl].
        apply (hash_lookup_total content k el symsec hi name s0 hs); auto. }
      intros el1 r1 L1 SH1.
      destruct ((sh_type hs =? SHT_GNU_HASH) || (sh_type hs =? DT_GNU_HASH_c)); [|eauto using kept_refl].
      destruct (same_shape_sec _ _ _ _ SH1 Hg) as (s1 & G1 & _).
      destruct (same_shape_sec _ _ _ _ SH1 Hn) as (hs1 & Gh1 & HSh).
      apply (gnu_hash_lookup_total content k el1 symsec hi name s1 hs1 L1 G1 Gh1).
      now rewrite (hdr_same_size _ _ HSh). }
    intros el1 r L SH. destruct r; [eauto using kept_refl|].
    destruct (same_shape_sec _ _ _ _ SH Hg) as (s1 & G1 & HS1). rewrite G1.
    pose proof (get_symbols_num_le el1 s1) as Hn. rewrite (hdr_same_size _ _ HS1) in Hn.
    apply (scan_names_total content k _ name el1 symsec 0 _ L (ex_intro _ s1 G1)). rewrite lenN_count_fuel; lia.
  Qed.
End ElLevel.
