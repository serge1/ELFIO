(* Properties_C01.v — C01: loading and inspecting arbitrary bytes is memory-safe
   and terminates; no data buffer requested by a load exceeds the input (+1). *)
From ElfioV Require Import Bytes Mem Stream SectionData Strings Elfio Table Accessors Loader Load_proofs Safety_proofs Modinfo_proofs.
Local Open Scope N_scope.

(* load() on ANY byte string, eager or lazy, from a string or a file stream,
   into any object (fresh or previously used), with any contents of
   uninitialised memory: returns (no Fault: no out-of-bounds access, null
   dereference, division by zero, or non-termination in the model), leaves an
   object every resident buffer of which covers its section/segment, and — when
   no address translation is installed — never requests a buffer larger than
   the input plus the terminator byte. *)
Theorem C01_load_total_and_bounded :
  forall (junk : N -> N) (el : elfio) (k : skind) (content : bytes) (lazy : bool),
    exists el' ok allocs,
      load junk el k content lazy = Ok (el', ok, allocs) /\
      loaded_ok content k el' /\
      (xlat_empty (el_xlat el) = true -> Forall (fun n => n <= lenN content + 1) allocs).
Proof. exact load_total. Qed.
Print Assumptions C01_load_total_and_bounded.

(* section data requested later (lazy objects) obey the same bound and keep the invariant *)
Theorem C01_section_data_request :
  forall junk content k el i s0,
    loaded_ok content k el -> get_sec el i = Some s0 ->
    exists el1 s1,
      sec_data junk el i = Ok (el1, s_data s1, s1) /\
      loaded_ok content k el1 /\ same_shape el el1 /\ get_sec el1 i = Some s1 /\
      buf_ok s1 (s_data s1) /\ hdr_same s0 s1.
Proof.
  intros junk content k el i s0 H Hg.
  destruct (sec_data_total junk content k el i s0 H Hg) as (el1 & s1 & E & [L SH] & R). eauto 10.
Qed.
Print Assumptions C01_section_data_request.

Theorem C01_segment_data_request :
  forall (junk : N -> N) content k el j g0,
    loaded_ok content k el -> get_seg el j = Some g0 ->
    exists el1 g1, el_seg_get_data el j = Ok (el1, g_data g1) /\ loaded_ok content k el1 /\ same_shape el el1 /\
      get_seg el1 j = Some g1 /\ gfits g1 /\ p_filesz g1 = p_filesz g0.
Proof.
  intros _ content k el j g0 H Hg.
  destruct (el_seg_get_data_total content k el j g0 H Hg) as (el1 & g1 & E & [L SH] & R). eauto 10.
Qed.
Print Assumptions C01_segment_data_request.

(* the readers named by the property, on any loaded object and any index *)
Theorem C01_string_reader :
  forall junk content k el strsec idx,
    loaded_ok content k el ->
    exists el1 r, lookup_str junk el strsec idx = Ok (el1, r) /\ loaded_ok content k el1 /\ same_shape el el1.
Proof. exact lookup_str_total. Qed.
Print Assumptions C01_string_reader.

Theorem C01_symbol_by_index :
  forall junk content k el symsec index s0,
    loaded_ok content k el -> get_sec el symsec = Some s0 ->
    exists el1 r, get_symbol junk el symsec index = Ok (el1, r) /\ loaded_ok content k el1 /\ same_shape el el1.
Proof. exact get_symbol_total. Qed.
Print Assumptions C01_symbol_by_index.

Theorem C01_dynamic_reader :
  forall junk content k el a index,
    loaded_ok content k el ->
    (forall s, get_sec el (da_sec a) = Some s -> da_num a <= sh_size s / sh_entsize s) ->
    (exists s, get_sec el (da_sec a) = Some s) ->
    exists el1 a1 r, dyn_get_entry junk el a index = Ok (el1, a1, r) /\ loaded_ok content k el1 /\ same_shape el el1.
Proof. exact dyn_get_entry_total. Qed.
Print Assumptions C01_dynamic_reader.

(* notes: sections/segments below 1 GiB (the walker advances by a 32-bit sum) *)
Theorem C01_note_walker :
  forall junk content k el t,
    loaded_ok content k el -> lenN content < 2 ^ 30 ->
    match t with NoteSec i => exists s, get_sec el i = Some s /\ sh_size s < 2 ^ 30
               | NoteSeg j => exists g, get_seg el j = Some g /\ p_filesz g < 2 ^ 30 end ->
    exists el1 a, note_new junk el t = Ok (el1, a) /\ loaded_ok content k el1 /\ same_shape el el1 /\
                  na_target a = t /\ note_starts_ok el1 a.
Proof. exact note_new_total. Qed.
Print Assumptions C01_note_walker.

Theorem C01_note_reader :
  forall junk content k el a index,
    loaded_ok content k el ->
    (match na_target a with
     | NoteSec i => exists s b, get_sec el i = Some s /\ s_loaded s = true /\ s_data s = Some b /\ sh_size s < 2 ^ 30 /\
                                Forall (note_pos_ok (el_enc el) b (sh_size s)) (na_starts a)
     | NoteSeg j => exists g b, get_seg el j = Some g /\ g_loaded g = true /\ g_data g = Some b /\ p_filesz g < 2 ^ 30 /\
                                Forall (note_pos_ok (el_enc el) b (p_filesz g)) (na_starts a)
     end) ->
    exists el1 r, note_get junk el a index = Ok (el1, r).
Proof. exact note_get_total. Qed.
Print Assumptions C01_note_reader.

(* module information: the reader relies on the NUL the loader writes after the
   section's bytes (C01_loaded_data_is_terminated); with it, it returns for any contents *)
Theorem C01_modinfo_reader :
  forall junk content k el sec s0,
    loaded_ok content k el -> get_sec el sec = Some s0 ->
    (forall el1 s1 b, sec_data junk el sec = Ok (el1, Some b, s1) -> 0 < sh_size s1 -> terminated b (sh_size s1)) ->
    exists el1 a, mod_new junk el sec = Ok (el1, a).
Proof. exact mod_new_total. Qed.
Print Assumptions C01_modinfo_reader.

Theorem C01_loaded_data_is_terminated :
  forall junk st0 t s st1 s1 ok al d,
    fits s -> s_data s = None -> 0 < sh_size s ->
    sec_load_data junk (Some st0) t s = Ok (st1, s1, ok, al) -> s_data s1 = Some d ->
    terminated d (sh_size s1).
Proof. exact loaded_data_terminated. Qed.
Print Assumptions C01_loaded_data_is_terminated.

(* non-vacuity: a 64-byte header-only image loads; 3 bytes of garbage are refused; both obey the bound *)
Definition ex_img : bytes :=
  [127; 69; 76; 70; 1; 1; 1; 0; 0; 0; 0; 0; 0; 0; 0; 0;  1; 0; 3; 0; 1; 0; 0; 0; 0; 0; 0; 0; 0; 0; 0; 0;
   0; 0; 0; 0; 0; 0; 0; 0; 52; 0; 0; 0; 0; 0; 0; 0; 0; 0; 0; 0].
Example C01_example :
  (exists el' al, load (fun _ => 170) (empty_elfio false) StringBuf ex_img false = Ok (el', true, al)) /\
  (exists el' al, load (fun _ => 170) (empty_elfio false) StringBuf [1; 2; 3] true = Ok (el', false, al)).
Proof. split; vm_compute; eauto. Qed.
