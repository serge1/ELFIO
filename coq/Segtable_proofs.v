(* Segtable_proofs.v — C02/C17: the loop of load_segments (lazy load, no address translation) over a program header
   table of any length, on a stream that holds the complete file or any prefix of it: every entry that lies inside
   the stream is reported field by field, with the members the rule selects; at the first entry cut by the end of
   the stream the loop stops with "not good" and reports nothing for it. *)
From ElfioV Require Import Bytes Mem Stream SectionData Strings Elfio Table Loader Load_proofs Codec_proofs
     Reader_proofs Prefix_proofs Reload_oneseg.
From Coq Require Import ZifyBool ZifyN ZifyNat.
Local Open Scope N_scope.

Definition seg_reported (secs : list section) (g r : segment) : Prop :=
  same_phdr g r /\ g_sections r = map wrap16 (seg_members g secs) /\ g_cls r = g_cls g.

Theorem load_segments_loop_of_prefix enc c phoff es (f : bytes) n secs : forall (segs : list segment) fuel st i racc allocs,
  is_fail st = false -> st_inv st -> is_content st = firstnN f n -> phoff < 2 ^ 62 -> phdr_size c <= es ->
  phoff + (i + lenN segs) * es < 2 ^ 62 ->
  Forall (fun g => g_cls g = c /\ phdr_wf g) segs ->
  (forall k g, nth_optN segs k = Some g -> phoff + (i + k) * es + phdr_size c <= lenN f /\
                                           sliceN f (phoff + (i + k) * es) (phdr_size c) = phdr_bytes enc g) ->
  (length segs <= fuel)%nat ->
  exists st' loaded ok allocs',
    load_segments_loop fuel st [] secs enc c phoff es i (i + lenN segs) true racc allocs = Ok (st', rev loaded ++ racc, ok, allocs') /\
    Forall2 (seg_reported secs) (firstn (length loaded) segs) loaded /\
    (ok = true -> length loaded = length segs) /\
    ((forall k, k < lenN segs -> phoff + (i + k) * es + phdr_size c <= n) -> ok = true).
Proof.
  induction segs as [|g t IH]; intros fuel st i racc allocs Hf Hi Hc H62 Hes Hb1 Hwf Hsl Hfuel.
  - cbn [lenN] in *. rewrite N.add_0_r. exists st, [], true, allocs. cbn [rev app length firstn].
    destruct fuel; cbn [load_segments_loop]; [|rewrite N.ltb_irrefl]; repeat split; auto; constructor.
  - rewrite lenN_cons in *. destruct fuel as [|fu]; [cbn in Hfuel; lia|]. cbn [length] in Hfuel.
    inversion Hwf as [|? ? [Hcl Hw] Hwt]; subst.
    destruct (Hsl 0 g eq_refl) as [Hin0 Hs0]. rewrite N.add_0_r in Hin0, Hs0.
    destruct (N.le_gt_cases (phoff + i * es + phdr_size (g_cls g)) n) as [Hle|Hgt].
    +
      destruct (load_segments_loop_step fu st enc (g_cls g) phoff es i (i + (1 + lenN t)) secs g racc allocs Hf Hi)
        as (st1 & r & -> & F1 & I1 & C1 & SP & GS & GC & _);
        [lia|lia|rewrite Hc, lenN_firstnN; lia|reflexivity|exact Hw|rewrite Hc, sliceN_prefix by exact Hle; exact Hs0|].
      replace (i + (1 + lenN t)) with ((i + 1) + lenN t) by lia.
      destruct (IH fu st1 (i + 1) (r :: racc) allocs F1 I1 ltac:(congruence) H62 Hes) as (st' & loaded & ok & allocs' & -> & H2 & H3 & H4).
      * lia. * exact Hwt.
      * intros k g' Hk. replace (i + 1 + k) with (i + (k + 1)) by lia. apply Hsl. now rewrite nth_optN_succ.
      * lia.
      * exists st', (r :: loaded), ok, allocs'. cbn [rev length firstn]. rewrite <- app_assoc. cbn [app].
        split; [reflexivity|]. split; [|split; [intros Hok; rewrite (H3 Hok); reflexivity|]].
        2:{ intros Hn. apply H4. intros k Hk. replace (i + 1 + k) with (i + (k + 1)) by lia. apply Hn. lia. }
        constructor; [exact (conj SP (conj GS GC))|exact H2].
    +
      cbn [load_segments_loop]. destruct (N.ltb_spec i (i + (1 + lenN t))); [|lia].
      rewrite table_pos_plain by lia.
      destruct (segment_load_total (is_content st) (is_kind st) st [] enc (g_cls g) (Z.of_N (phoff + i * es)) true)
        as (st1 & g1 & ok1 & al & E & _); [repeat split; exact Hi|].
      pose proof (segment_load_cut_entry_fails st enc (g_cls g) (phoff + i * es) true st1 g1 ok1 al Hf Hi ltac:(lia)
                    ltac:(rewrite Hc, lenN_firstnN; lia) E) as F1.
      rewrite E. cbn [bind]. rewrite F1, orb_true_r.
      exists st1, [], false, (al ++ allocs). cbn [rev app length firstn].
      split; [reflexivity|]. split; [constructor|]. split; [discriminate|]. intros Hn. exfalso.
      specialize (Hn 0 ltac:(lia)). rewrite N.add_0_r in Hn. lia.
Qed.

(* the complete file (lazy load, no address translation): every entry reported, the loop ends "good" *)
Corollary load_segments_loop_reports enc c phoff es secs (segs : list segment) fuel st i racc allocs :
  is_fail st = false -> st_inv st -> phoff < 2 ^ 62 -> phdr_size c <= es ->
  phoff + (i + lenN segs) * es < 2 ^ 62 ->
  Forall (fun g => g_cls g = c /\ phdr_wf g) segs ->
  (forall k g, nth_optN segs k = Some g -> phoff + (i + k) * es + phdr_size c <= lenN (is_content st) /\
                                           sliceN (is_content st) (phoff + (i + k) * es) (phdr_size c) = phdr_bytes enc g) ->
  (length segs <= fuel)%nat ->
  exists st' loaded allocs',
    load_segments_loop fuel st [] secs enc c phoff es i (i + lenN segs) true racc allocs = Ok (st', rev loaded ++ racc, true, allocs') /\
    Forall2 (seg_reported secs) segs loaded.
Proof.
  intros Hf Hi H62 Hes Hb1 Hwf Hsl Hfuel.
  destruct (load_segments_loop_of_prefix enc c phoff es (is_content st) (lenN (is_content st)) secs segs fuel st i racc allocs Hf Hi
              ltac:(symmetry; apply firstnN_all; lia) H62 Hes Hb1 Hwf Hsl Hfuel) as (st' & loaded & ok & allocs' & E & H2 & H3 & H4).
  assert (Hok : ok = true).
  { apply H4. intros k Hk. destruct (nth_optN_some segs k Hk) as (g & Hg). exact (proj1 (Hsl k g Hg)). }
  subst ok. exists st', loaded, allocs'. split; [exact E|].
  rewrite (H3 eq_refl) in H2. rewrite <- (firstn_all segs). exact H2.
Qed.
