(* Properties_C20.v — C20: validate() reports real conflicts, and only those. *)
From ElfioV Require Import Bytes Mem Stream SectionData Elfio Table Layout Writer Validate_proofs Layout_proofs Validate_writer Segment_proofs Validate_oneseg
     Loader Stream Strings Codec_proofs Ostream_proofs Reader_proofs Writer_proofs Oneseg_proofs Oneseg_writer Oneseg_members Reload_oneseg Validate_reload.
From Coq Require Import Sorted.
Local Open Scope N_scope.

(* Two non-empty sections that occupy file space and share a file byte are
   always reported (any object with fewer than 2^16 sections and segments). *)
Theorem C20_overlap_reported :
  forall el i j a b,
    lenN (el_secs el) < 2 ^ 16 -> lenN (el_segs el) < 2 ^ 16 ->
    i < j -> nth_optN (el_secs el) i = Some a -> nth_optN (el_secs el) j = Some b ->
    occupies a -> occupies b -> in_file a -> in_file b -> file_overlap a b ->
    In (COverlap i j) (validate el).
Proof. exact validate_reports_overlap. Qed.
Print Assumptions C20_overlap_reported.

(* A loadable segment whose address disagrees with the address of the program
   section found at its file offset is always reported. *)
Theorem C20_skewed_segment_reported :
  forall el g sec,
    lenN (el_secs el) < 2 ^ 16 -> lenN (el_segs el) < 2 ^ 16 ->
    In g (el_segs el) -> p_type g = PT_LOAD -> 0 < p_filesz g ->
    find_prog_section (el_secs el) (p_offset g) = Some sec ->
    get_virtual_addr (p_offset g) sec <> p_vaddr g ->
    In (CSegAddr (g_index g) (s_index sec)) (validate el).
Proof. exact validate_reports_skew. Qed.
Print Assumptions C20_skewed_segment_reported.

(* Overlap complaints are never spurious: a complaint names two sections that
   occupy file space and do share a byte. *)
Theorem C20_overlap_complaints_are_real :
  forall el i j,
    lenN (el_secs el) < 2 ^ 16 -> lenN (el_segs el) < 2 ^ 16 ->
    (forall s, In s (el_secs el) -> in_file s) ->
    In (COverlap i j) (validate el) ->
    exists a b, i < j /\ nth_optN (el_secs el) i = Some a /\ nth_optN (el_secs el) j = Some b /\
                occupies a /\ occupies b /\ file_overlap a b.
Proof. exact validate_overlap_sound. Qed.
Print Assumptions C20_overlap_complaints_are_real.

(* No complaint at all when no pair is reported and every loadable segment agrees
   with its program section.  (That the writer's output meets these premises is
   Properties_C04 for the modelled layouts plus the correspondence run: partial.) *)
Theorem C20_consistent_accepted_partial :
  forall el,
    lenN (el_secs el) < 2 ^ 16 -> lenN (el_segs el) < 2 ^ 16 ->
    (forall i j a b, i < j -> nth_optN (el_secs el) i = Some a -> nth_optN (el_secs el) j = Some b ->
                     sections_overlap_reported a b = false) ->
    (forall g sec, In g (el_segs el) -> p_type g = PT_LOAD -> 0 < p_filesz g ->
                   find_prog_section (el_secs el) (p_offset g) = Some sec ->
                   get_virtual_addr (p_offset g) sec = p_vaddr g) ->
    validate el = [].
Proof. exact validate_clean. Qed.
Print Assumptions C20_consistent_accepted_partial.

(* what the writer lays out for an object without segments is accepted: after
   the layout step of save(), validate() has no complaint (sections of type
   SHT_NULL are empty, as is the section with index 0) *)
Theorem C20_accepts_writer_output_without_segments :
  forall el h0 bound,
    el_hdr el = Some h0 -> el_segs el = [] ->
    bound <= 2 ^ 63 -> Forall (fun s => bound <= 2 ^ xw (s_cls s)) (el_secs el) ->
    e_ehsize h0 + budget (el_secs el) + 16 < bound ->
    lenN (el_secs el) < 2 ^ 16 ->
    (forall s, In s (el_secs el) -> sh_type s = SHT_NULL -> sh_size s = 0) ->
    (forall s, In s (el_secs el) -> s_index s = 0 -> sh_size s = 0 \/ sh_type s = SHT_NOBITS) ->
    exists el', layout el = Ok (el', true) /\ validate el' = [].
Proof. exact validate_accepts_noseg_layout. Qed.
Print Assumptions C20_accepts_writer_output_without_segments.

(* ... and for an object with one segment of automatically addressed allocated data members plus any sections
   outside it (the class of C04_layout_with_one_segment): the layout succeeds, no two sections are reported as
   overlapping, and the program section found at the segment's file offset is its first member, whose address
   is the segment's virtual address *)
Theorem C20_accepts_writer_output_with_one_segment :
  forall el h0 g bound ms,
    let idxs := g_sections g in
    let align := if 0 <? p_align g then p_align g else 1 in
    let secs := el_secs el in
    let pos0 := e_ehsize h0 + e_phentsize h0 in
    el_hdr el = Some h0 -> el_segs el = [g] -> lenN secs < 2 ^ 16 ->
    lenN idxs < 2 ^ 16 -> idxs <> [] -> g_offset_set g = false -> p_type g <> PT_PHDR -> NoDup idxs ->
    Forall2 (fun i s => nth_optN secs i = Some s) idxs ms ->
    Forall auto_member ms -> Forall (fun s => sh_addralign s <= p_align g) ms ->
    bound <= 2 ^ 63 -> Forall (fun s => bound <= 2 ^ xw (s_cls s)) secs -> bound <= 2 ^ xw (g_cls g) ->
    p_align g < 2 ^ 63 ->
    p_vaddr g + pos0 + align + mbudget ms + budget secs + 16 < bound ->
    (forall s, In s secs -> sh_type s = SHT_NULL -> sh_size s = 0) ->
    (forall s, In s secs -> s_index s = 0 -> sh_size s = 0 \/ sh_type s = SHT_NOBITS) ->
    exists el', layout el = Ok (el', true) /\ validate el' = [].
Proof.
  intros el h0 g bound ms. cbv zeta. intros Hh Hs Hnsec Hlen Hne Hos Hty Hnd HF Hauto Hdom Hb63 Hcls Hbg Hal Hbud Hnull Hzero.
  assert (O : oneseg el h0 g bound ms) by (constructor; try assumption; lia).
  destruct (oneseg_laid el h0 g bound ms O) as (el' & h' & g' & ss & pos1 & pos2 & L).
  exists el'. split; [exact (ld_layout L)|exact (laid_validate O L Hnull Hzero)].
Qed.
Print Assumptions C20_accepts_writer_output_with_one_segment.

(* non-vacuity: ELF32, a PT_LOAD segment at 0x8048004 (align 0x1000) holding two program sections, a free section behind:
   the layout succeeds and validate() has nothing to say about it (the object of C04_one_segment_example) *)
Definition ex1_ms (i al sz : N) : section :=
  with_index (with_flags (with_size (with_addralign (with_type (new_section C32) 1) al) sz) 2) i.
Definition ex1_seg : segment :=
  seg_add_section_index (seg_add_section_index (seg_set (seg_set (seg_set (new_segment C32) GType 1) GVaddr 134512644) GAlign 4096) 1 16) 2 4.
Example C20_one_segment_example :
  let fs (i : N) := with_index (with_size (with_addralign (with_type (new_section C32) 1) 1) 7) i in
  let el := with_segs (with_secs (with_hdr (empty_elfio false) (Some (new_header C32 LSB)))
                                 [ex1_ms 0 0 0; ex1_ms 1 16 5; ex1_ms 2 4 3; fs 3]) [ex1_seg] in
  exists el', layout el = Ok (el', true) /\ validate el' = [] /\ map p_offset (el_segs el') = [4100] /\
              Forall auto_member [ex1_ms 1 16 5; ex1_ms 2 4 3].
Proof.
  eexists. split; [vm_compute; reflexivity|]. split; [vm_compute; reflexivity|]. split; [vm_compute; reflexivity|].
  repeat constructor; vm_compute; discriminate.
Qed.

(* validate() reads nothing but header fields - of the sections: type, size, offset, address, index; of the segments:
   type, offset, file size, address, index - so it says the same about any two objects that report the same fields *)
Theorem C20_validate_reads_headers_only :
  forall el1 el2,
    Forall2 sec_alike (el_secs el1) (el_secs el2) -> Forall2 seg_alike (el_segs el1) (el_segs el2) ->
    validate el2 = validate el1.
Proof. exact validate_reads_headers_only. Qed.
Print Assumptions C20_validate_reads_headers_only.

(* ... hence the RELOADED form of the file saved from a one-segment object (the class above) is accepted as well: the
   sections and the segment that the two loader loops report for the saved file (C05_one_segment_survives_reload)
   form an object validate() has nothing to say about *)
Theorem C20_accepts_reloaded_writer_output_with_one_segment :
  forall junk el h0 g bound ms,
    let idxs := g_sections g in
    let align := if 0 <? p_align g then p_align g else 1 in
    let secs := el_secs el in
    let pos0 := e_ehsize h0 + e_phentsize h0 in
    el_hdr el = Some h0 -> el_segs el = [g] -> lenN secs < 2 ^ 16 ->
    lenN idxs < 2 ^ 16 -> idxs <> [] -> g_offset_set g = false -> p_type g <> PT_PHDR -> NoDup idxs ->
    Forall2 (fun i s => nth_optN secs i = Some s) idxs ms ->
    Forall auto_member ms -> Forall (fun s => sh_addralign s <= p_align g) ms ->
    bound <= 2 ^ 62 -> Forall (fun s => bound <= 2 ^ xw (s_cls s)) secs -> bound <= 2 ^ xw (g_cls g) ->
    bound <= 2 ^ xw (e_cls h0) -> p_align g < 2 ^ 63 ->
    p_vaddr g + pos0 + align + mbudget ms + budget secs + 16 + e_shentsize h0 * lenN secs < bound ->
    indexed_from 0 secs ->
    (forall s, In s secs -> s_index s = 0 -> csize s = 0) ->
    (forall s b, In s secs -> s_data s = Some b -> sh_size s <= lenN b) ->
    lenN (e_ident h0) = 16 -> e_ehsize h0 = ehdr_size (e_cls h0) ->
    (forall s, In s secs -> shdr_size (s_cls s) <= e_shentsize h0) ->
    phdr_size (g_cls g) <= e_phentsize h0 -> g_index g = 0 -> e_shentsize h0 = shdr_size (e_cls h0) ->
    p_type g <> PT_TLS -> Forall (fun s => sh_size s <> 0) ms ->
    (forall j s, ~ In j idxs -> nth_optN secs j = Some s ->
       is_tls s \/ (is_alloc s /\ sh_addr s < p_vaddr g) \/ (~ is_alloc s /\ (s_index s = 0 -> sh_offset s < pos0))) ->
    secs <> [] ->
    (forall s, In s secs -> sh_type s = SHT_NULL -> sh_size s = 0) ->
    (forall s, In s secs -> s_index s = 0 -> sh_size s = 0 \/ sh_type s = SHT_NOBITS) ->
    exists el' h' g',
      layout el = Ok (el', true) /\ el_hdr el' = Some h' /\ el_segs el' = [g'] /\ validate el' = [] /\
      let plan := oneseg_plan h' (el_secs el') (segments_plan (e_enc h') h' [g']) in
      (plan_small 0 plan -> phdr_wf g' ->
       (forall s, In s (el_secs el') -> s_cls s = e_cls h' /\ shdr_wf s) ->
       p_vaddr g + p_memsz g' < 2 ^ 64 -> StronglySorted N.lt idxs ->
       forall k f,
       let file := os_bytes (exec_plan (new_ostream None) plan) in
       exists st1 loaded st2 r,
         load_sections_loop junk (length secs) (open_istream k file) [] (e_cls h') (e_enc h') (e_shoff h') (e_shentsize h')
                            0 (e_shnum h') true [] [] = Ok (st1, rev loaded, []) /\
         load_segments_loop (S f) st1 [] loaded (e_enc h') (g_cls g') (e_phoff h') (e_phentsize h') 0 (e_phnum h') true [] [] =
           Ok (st2, [r], true, []) /\
         forall elr, el_secs elr = loaded -> el_segs elr = [r] -> validate elr = []).
Proof.
  intros junk el h0 g bound ms. cbv zeta.
  intros Hh Hs Hnsec Hlen Hne Hos Hty Hnd HF Hauto Hdom Hb62 Hcls Hbg Hbh Hal Hbud Hidx Hnull Hdata Hident Heh Hes Hph Hgi Hes_eq
    Htls Hnz Hfree Hsne Hvn Hvz.
  assert (O : oneseg el h0 g bound ms) by (constructor; try assumption; lia).
  assert (F : oneseg_file el h0 g bound ms) by (constructor; try assumption; try lia; constructor; assumption).
  destruct (oneseg_laid el h0 g bound ms O) as (el' & h' & g' & ss & pos1 & pos2 & L).
  exists el', h', g'. split; [exact (ld_layout L)|]. split; [exact (ld_hdr L)|]. split; [exact (ld_segs L)|].
  exact (validate_accepts_reloaded_oneseg junk el h0 g bound ms el' h' g' ss pos1 pos2 O F L Hdata Hb62 Hes_eq Htls Hnz Hfree Hsne Hvn Hvz).
Qed.
Print Assumptions C20_accepts_reloaded_writer_output_with_one_segment.

(* the pair test is exact on sections that occupy file space *)
Theorem C20_pair_test_exact :
  forall a b, occupies a -> occupies b -> in_file a -> in_file b ->
    (sections_overlap_reported a b = true <-> file_overlap a b).
Proof. exact overlap_reported_iff. Qed.
Print Assumptions C20_pair_test_exact.

(* non-vacuity: a strictly contained section (none of whose ends the containing
   one's end tests see) and a skewed segment are both reported *)
Definition ex_sec (i ty off sz addr : N) : section :=
  with_index (with_addr (with_size (with_offset (with_type (new_section C64) ty) off) sz) addr) i.
Definition ex_el : elfio :=
  with_segs (with_secs (empty_elfio false)
     [ex_sec 0 0 0 0 0; ex_sec 1 SHT_PROGBITS 100 50 4096; ex_sec 2 SHT_STRTAB 110 10 0])
     [seg_set (seg_set (seg_set (seg_set (new_segment C64) GType PT_LOAD) GOffset 100) GFilesz 50) GVaddr 4097].
Example C20_example :
  validate ex_el = [COverlap 1 2; CSegAddr 0 1] /\
  occupies (ex_sec 1 SHT_PROGBITS 100 50 4096) /\ in_file (ex_sec 2 SHT_STRTAB 110 10 0) /\
  file_overlap (ex_sec 1 SHT_PROGBITS 100 50 4096) (ex_sec 2 SHT_STRTAB 110 10 0).
Proof.
  split; [vm_compute; reflexivity|]. split; [|split].
  - unfold occupies; vm_compute. repeat split; discriminate.
  - unfold in_file; vm_compute. reflexivity.
  - exists 112. vm_compute. repeat split; discriminate.
Qed.
