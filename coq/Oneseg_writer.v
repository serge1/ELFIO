(* Oneseg_writer.v — C03/C04/C05 for an object with one segment of automatically addressed members:
   the ranges save() writes (ELF header, program header, every section's data, every section header)
   are pairwise disjoint, hence each appears verbatim in the saved file. *)
From ElfioV Require Import Bytes Mem Stream SectionData Elfio Loader Layout Writer Ostream_proofs Codec_proofs
     Layout_proofs Segment_proofs Writer_proofs Oneseg_proofs ByName_proofs.
Local Open Scope N_scope.

(* what the layout may do to a section *)
Definition relaid (s s' : section) : Prop :=
  s' = s \/ (exists o, s' = with_offset s o) \/ (exists a o, s' = with_offset (with_addr s a) o).

Lemma relaid_field {A} (f : section -> A) :
  (forall s o, f (with_offset s o) = f s) -> (forall s a, f (with_addr s a) = f s) ->
  forall s s', relaid s s' -> f s' = f s.
Proof. intros Ho Ha s s' [->|[(o & ->)|(a & o & ->)]]; [reflexivity|apply Ho|now rewrite Ho, Ha]. Qed.

Lemma keeps_relaid s s' : keeps s s' -> relaid s s'.
Proof. intros [->|[_ ->]]; [now left|right; left; eauto]. Qed.

Lemma relaid_index s s' : relaid s s' -> s_index s' = s_index s.
Proof. now apply (relaid_field s_index). Qed.
Lemma relaid_cls s s' : relaid s s' -> s_cls s' = s_cls s.
Proof. now apply (relaid_field s_cls). Qed.
Lemma relaid_type s s' : relaid s s' -> sh_type s' = sh_type s.
Proof. now apply (relaid_field sh_type). Qed.
Lemma relaid_size s s' : relaid s s' -> sh_size s' = sh_size s.
Proof. now apply (relaid_field sh_size). Qed.
Lemma relaid_flags s s' : relaid s s' -> sh_flags s' = sh_flags s.
Proof. now apply (relaid_field sh_flags). Qed.
Lemma relaid_data s s' : relaid s s' -> s_data s' = s_data s.
Proof. now apply (relaid_field s_data). Qed.
Lemma relaid_csize s s' : relaid s s' -> csize s' = csize s.
Proof. now apply (relaid_field csize). Qed.

Lemma relaid_quiet s s' : relaid s s' -> quiet s -> quiet s'.
Proof. intros R. now rewrite (relaid_field quiet (fun _ _ => eq_refl) (fun _ _ => eq_refl) _ _ R). Qed.

Lemma indexed_relaid l l' : Forall2 relaid l l' -> forall i, indexed_from i l -> indexed_from i l'.
Proof. exact (indexed_from_Forall2 relaid relaid_index l l'). Qed.

Lemma relaid_forall (P : section -> Prop) l l' : (forall s s', relaid s s' -> P s -> P s') ->
  Forall2 relaid l l' -> (forall s, In s l -> P s) -> forall s', In s' l' -> P s'.
Proof. intros HP HR H s' Hs'. destruct (Forall2_In_r _ _ _ HR s' Hs') as (s & Hs & R). eauto. Qed.

Lemma relaid_null l l' : Forall2 relaid l l' ->
  (forall s, In s l -> s_index s = 0 -> csize s = 0) -> forall s, In s l' -> s_index s = 0 -> csize s = 0.
Proof.
  apply (relaid_forall (fun s => s_index s = 0 -> csize s = 0)). intros s s' R H.
  now rewrite (relaid_index _ _ R), (relaid_csize _ _ R).
Qed.

Lemma relaid_covered l l' : Forall2 relaid l l' ->
  (forall s b, In s l -> s_data s = Some b -> sh_size s <= lenN b) -> forall s b, In s l' -> s_data s = Some b -> sh_size s <= lenN b.
Proof.
  intros HR H s' b Hs'. destruct (Forall2_In_r _ _ _ HR s' Hs') as (s & Hs & R).
  rewrite (relaid_data _ _ R), (relaid_size _ _ R). exact (H s b Hs).
Qed.

Lemma writes_ok_relaid h h' pn po ns p secs secs' :
  hdr_laid h h' pn po ns p -> Forall2 relaid secs secs' -> writes_ok h secs -> writes_ok h' secs'.
Proof.
  intros HL HR W. split.
  - exact (indexed_relaid _ _ HR 0 (wo_indexed W)).
  - rewrite (hl_shentsize HL). apply (relaid_forall (fun s => shdr_size (s_cls s) <= e_shentsize h) _ _) with (2 := HR) (3 := wo_entry W).
    intros s s' R H. now rewrite (relaid_cls _ _ R).
  - exact (relaid_null _ _ HR (wo_null W)).
  - rewrite (hl_ident HL). exact (wo_ident W).
  - rewrite (hl_ehsize HL), (hl_cls HL). exact (wo_ehsize W).
Qed.

Lemma mchain_pairs g ss secs' : forall idxs lo hi, mchain g ss secs' idxs lo hi ->
  ForallOrdPairs (fun i j => forall a b, nth_optN secs' i = Some a -> nth_optN secs' j = Some b ->
                                         sh_offset a + sh_size a <= sh_offset b) idxs.
Proof.
  induction idxs as [|i t IH]; intros lo hi H; [constructor|]. cbn [mchain] in H.
  destruct H as (s & H1 & Hlo & Hal & Hva & Hss & H6). constructor; [|exact (IH _ _ H6)].
  apply Forall_forall. intros j Hj a b Ha Hb. rewrite H1 in Ha. injection Ha as <-.
  destruct (mchain_member _ _ _ _ _ _ j H6 Hj) as (b' & B1 & B2 & _). rewrite Hb in B1. injection B1 as <-. exact B2.
Qed.

Lemma free_list_In segs : forall l i k s, nth_optN l k = Some s -> sec_without_segment segs (i + k) = true -> In s (free_list segs i l).
Proof.
  induction l as [|x t IH]; intros i k s Hk Hf; [discriminate|]. cbn [nth_optN] in Hk. cbn [free_list].
  destruct (N.eqb_spec k 0) as [->|Hk0].
  - injection Hk as ->. rewrite N.add_0_r in Hf. rewrite Hf. now left.
  - assert (In s (free_list segs (i + 1) t)).
    { apply (IH (i + 1) (k - 1) s Hk). replace (i + 1 + (k - 1)) with (i + k) by lia. exact Hf. }
    destruct (sec_without_segment segs i); [now right|assumption].
Qed.

Lemma free_list_split segs : forall l i ka kb a b, ka < kb ->
  nth_optN l ka = Some a -> nth_optN l kb = Some b ->
  sec_without_segment segs (i + ka) = true -> sec_without_segment segs (i + kb) = true ->
  exists pre mid post, free_list segs i l = pre ++ a :: mid ++ b :: post.
Proof.
  induction l as [|x t IH]; intros i ka kb a b Hlt Ha Hb Fa Fb; [discriminate|].
  cbn [nth_optN] in Ha, Hb. cbn [free_list].
  destruct (N.eqb_spec kb 0) as [->|Hkb]; [lia|].
  destruct (N.eqb_spec ka 0) as [->|Hka].
  - injection Ha as ->. rewrite N.add_0_r in Fa. rewrite Fa.
    assert (Hin : In b (free_list segs (i + 1) t)).
    { apply (free_list_In segs t (i + 1) (kb - 1) b Hb). replace (i + 1 + (kb - 1)) with (i + kb) by lia. exact Fb. }
    destruct (in_split _ _ Hin) as (m & p & ->). exists [], m, p. reflexivity.
  - destruct (IH (i + 1) (ka - 1) (kb - 1) a b ltac:(lia) Ha Hb) as (pre & m & p & E).
    + replace (i + 1 + (ka - 1)) with (i + ka) by lia. exact Fa.
    + replace (i + 1 + (kb - 1)) with (i + kb) by lia. exact Fb.
    + rewrite E. destruct (sec_without_segment segs i); [exists (x :: pre), m, p|exists pre, m, p]; reflexivity.
Qed.

Section Placement.
  Variables (g g' : segment) (secs' : list section) (ss pos1 pos2 : N).
  Let idxs := g_sections g.
  Hypothesis Hm : mchain g ss secs' idxs ss pos1.
  Hypothesis Hf : chain (free_list [g'] 0 secs') pos1 pos2.
  Hypothesis Hg' : g_sections g' = idxs.
  Hypothesis Hlen : lenN idxs < 2 ^ 16.

  Lemma free_iff j : sec_without_segment [g'] j = true <-> ~ In j idxs.
  Proof.
    rewrite sws_single by (rewrite Hg'; exact Hlen). rewrite Hg'. rewrite <- is_member_In.
    destruct (is_member idxs j); cbn [negb].
    - split; [discriminate|intros H; exfalso; now apply H].
    - split; [intros _ H; discriminate|reflexivity].
  Qed.

  Lemma member_range j s : In j idxs -> nth_optN secs' j = Some s -> ss <= sh_offset s /\ sh_offset s + sh_size s <= pos1.
  Proof.
    intros Hin Hj. destruct (mchain_member _ _ _ _ _ _ j Hm Hin) as (s0 & S0 & S1 & S2 & _).
    rewrite Hj in S0. injection S0 as <-. auto.
  Qed.

  Lemma free_range j s : ~ In j idxs -> nth_optN secs' j = Some s -> s_index s <> 0 ->
    pos1 <= sh_offset s /\ sh_offset s + csize s <= pos2.
  Proof.
    intros Hn Hj Hi.
    assert (Hfl : In s (free_list [g'] 0 secs')).
    { apply (free_list_In [g'] secs' 0 j s Hj). rewrite N.add_0_l. now apply free_iff. }
    destruct (chain_member _ _ _ s Hf Hfl Hi) as (C1 & C2 & _). auto.
  Qed.

  Hypothesis Hnull : forall s, In s secs' -> s_index s = 0 -> csize s = 0.

  Theorem oneseg_placed : placed secs' ss pos2.
  Proof.
    pose proof (mchain_bounds _ _ _ _ _ _ Hm) as B1. pose proof (chain_bounds _ _ _ Hf) as B2. split.
    - lia.
    - intros s Hs Hi. destruct (In_nth_optN _ _ Hs) as (j & Hj). pose proof (csize_le s).
      destruct (in_dec N.eq_dec j idxs) as [Hin|Hn].
      + destruct (member_range j s Hin Hj). lia.
      + destruct (free_range j s Hn Hj Hi). lia.
    - intros i j a b Hij Ha Hb. unfold rng_disjoint, data_range. cbn [fst snd].
      destruct (N.eq_dec (csize a) 0) as [Za|Za]; [right; right; now left|].
      destruct (N.eq_dec (csize b) 0) as [Zb|Zb]; [right; right; now right|].
      assert (Hia : s_index a <> 0) by (intro E0; apply Za; exact (Hnull a (nth_optN_In _ _ _ Ha) E0)).
      assert (Hib : s_index b <> 0) by (intro E0; apply Zb; exact (Hnull b (nth_optN_In _ _ _ Hb) E0)).
      pose proof (csize_le a). pose proof (csize_le b).
      destruct (in_dec N.eq_dec i idxs) as [Ii|Ni]; destruct (in_dec N.eq_dec j idxs) as [Ij|Nj].
      + (* two members: their order in the member list decides *)
        destruct (ForallOrdPairs_In (mchain_pairs _ _ _ _ _ _ Hm) i j Ii Ij) as [E|[R|R]]; [lia| |].
        * specialize (R a b Ha Hb). left. lia.
        * specialize (R b a Hb Ha). right; left. lia.
      + destruct (member_range i a Ii Ha). destruct (free_range j b Nj Hb Hib). left. lia.
      + destruct (member_range j b Ij Hb). destruct (free_range i a Ni Ha Hia). right; left. lia.
      + apply free_iff in Ni. apply free_iff in Nj.
        destruct (free_list_split [g'] secs' 0 i j a b Hij Ha Hb Ni Nj) as (pre & m & p & E).
        left. exact (chain_disjoint _ _ _ pre a m b p Hf E Hia Hib).
  Qed.
End Placement.

Theorem oneseg_data_disjoint (g g' : segment) secs' ss pos1 pos2 :
  mchain g ss secs' (g_sections g) ss pos1 ->
  chain (free_list [g'] 0 secs') pos1 pos2 ->
  g_sections g' = g_sections g -> lenN (g_sections g) < 2 ^ 16 ->
  (forall i s, In i (g_sections g) -> nth_optN secs' i = Some s -> csize s = sh_size s) ->
  (forall j s, nth_optN secs' j = Some s -> s_index s = 0 -> csize s = 0) ->
  forall i j a b, i <> j -> nth_optN secs' i = Some a -> nth_optN secs' j = Some b -> NoDup (g_sections g) ->
    rng_disjoint (data_range a) (data_range b).
Proof.
  intros Hm Hf Hg Hlen _ Hnull i j a b Hne Ha Hb _.
  refine (placed_disjoint _ _ _ (oneseg_placed g g' secs' ss pos1 pos2 Hm Hf Hg Hlen _) i j a b Hne Ha Hb).
  intros s Hs. destruct (In_nth_optN _ _ Hs) as (k & Hk). exact (Hnull k s Hk).
Qed.

Definition oneseg_plan (h : ehdr) (secs : list section) (extra : list (N * bytes)) : list (N * bytes) :=
  ((0, ehdr_bytes h) :: flat_map (sec_writes (e_enc h) (e_shoff h) (e_shentsize h)) secs) ++ extra.

Set Implicit Arguments.
(* what the layout step makes of it: el' with header h' and segment g', the segment at ss, its members
   chained up to pos1, the other sections up to pos2 *)
Record laid (el : elfio) (h0 : ehdr) (g : segment) (ms : list section)
            (el' : elfio) (h' : ehdr) (g' : segment) (ss pos1 pos2 : N) : Prop := {
  ld_layout : layout el = Ok (el', true);
  ld_hdr : el_hdr el' = Some h';
  ld_fields : hdr_laid h0 h' 1 (e_ehsize h0) (lenN (el_secs el)) (pos2 + (16 - pos2 mod 16));
  ld_segs : el_segs el' = [g'];
  ld_start : e_ehsize h0 + e_phentsize h0 <= ss;
  ld_start_lt : ss < e_ehsize h0 + e_phentsize h0 + (if 0 <? p_align g then p_align g else 1);
  ld_congruent : ss mod (if 0 <? p_align g then p_align g else 1) = p_vaddr g mod (if 0 <? p_align g then p_align g else 1);
  ld_offset : p_offset g' = ss;
  ld_vaddr : p_vaddr g' = p_vaddr g;
  ld_filesz : p_filesz g' = pos1 - ss;
  ld_memsz : p_filesz g' <= p_memsz g';
  ld_sections : g_sections g' = g_sections g;
  ld_type : p_type g' = p_type g;
  ld_gcls : g_cls g' = g_cls g;
  ld_gindex : g_index g' = g_index g;
  ld_mchain : mchain g ss (el_secs el') (g_sections g) ss pos1;
  ld_relaid : Forall2 relaid (el_secs el) (el_secs el');
  ld_others : forall j s, ~ In j (g_sections g) -> nth_optN (el_secs el) j = Some s ->
                exists s', nth_optN (el_secs el') j = Some s' /\ keeps s s';
  ld_chain : chain (free_list [g'] 0 (el_secs el')) pos1 pos2;
  ld_pos1 : pos1 <= ss + mbudget ms;
  ld_pos2 : pos2 <= pos1 + budget (el_secs el)
}.

(* ... and what the theorems about the written file ask in addition *)
Record oneseg_file (el : elfio) (h0 : ehdr) (g : segment) (bound : N) (ms : list section) : Prop := {
  of_bound : bound <= 2 ^ 63;
  of_hcls : bound <= 2 ^ xw (e_cls h0);
  (* [og_room] and the section header table itself *)
  of_room : p_vaddr g + (e_ehsize h0 + e_phentsize h0) + (if 0 <? p_align g then p_align g else 1) +
            mbudget ms + budget (el_secs el) + 16 + e_shentsize h0 * lenN (el_secs el) < bound;
  of_writes : writes_ok h0 (el_secs el);
  of_phentsize : phdr_size (g_cls g) <= e_phentsize h0;
  of_gindex : g_index g = 0
}.
Unset Implicit Arguments.

Theorem oneseg_laid el h0 g bound ms : oneseg el h0 g bound ms ->
  exists el' h' g' ss pos1 pos2, laid el h0 g ms el' h' g' ss pos1 pos2.
Proof.
  intros O.
  destruct (layout_oneseg el h0 g bound ms O)
    as (el' & g' & secs' & ss & pos1 & pos2 & EL & Eh & Eg & Es & _ & _ & _ & S1 & S2 & S3 & O1 & V1 & F1 & F2 &
        (G1 & _ & _ & G4 & G5 & G6 & _ & _) & MC & PL & FR & LN & CH & B1 & B2).
  subst secs'. exists el', (hdr_set (hdr_prep1 h0 (lenN (el_secs el))) HShoff (pos2 + (16 - pos2 mod 16))), g', ss, pos1, pos2.
  split; try assumption; [apply hdr_laid_fields|].
  apply Forall2_of_nth; [exact LN|]. intros j x Hj.
  destruct (in_dec N.eq_dec j (g_sections g)) as [Hin|Hnin].
  - destruct (Forall2_both_In _ _ _ _ j (og_members O) PL Hin) as (s & _ & Hsj & (a & o & Hs1)).
    rewrite Hj in Hsj. injection Hsj as <-. exists (with_offset (with_addr x a) o). split; [exact Hs1|right; right; eauto].
  - destruct (FR j x Hnin Hj) as (s' & Hs' & K). exists s'. split; [exact Hs'|now apply keeps_relaid].
Qed.

Section Laid.
  Context {el : elfio} {h0 : ehdr} {g : segment} {bound : N} {ms : list section}.
  Context {el' : elfio} {h' : ehdr} {g' : segment} {ss pos1 pos2 : N}.
  Hypothesis O : oneseg el h0 g bound ms.
  Hypothesis L : laid el h0 g ms el' h' g' ss pos1 pos2.

  (* the end of the last section, with whatever room x was left beyond the budget *)
  Lemma laid_end x :
    p_vaddr g + (e_ehsize h0 + e_phentsize h0) + (if 0 <? p_align g then p_align g else 1) +
      mbudget ms + budget (el_secs el) + 16 + x < bound ->
    p_vaddr g + pos2 + 16 + x < bound.
  Proof. pose proof (ld_start_lt L). pose proof (ld_pos1 L). pose proof (ld_pos2 L). lia. Qed.

  Lemma laid_pos2 : p_vaddr g + pos2 + 16 < bound.
  Proof. pose proof (laid_end 0). pose proof (og_room O). lia. Qed.

  Lemma laid_order : ss <= pos1 /\ pos1 <= pos2.
  Proof. split; [exact (mchain_bounds _ _ _ _ _ _ (ld_mchain L))|exact (chain_bounds _ _ _ (ld_chain L))]. Qed.

  Lemma laid_placed : (forall s, In s (el_secs el) -> s_index s = 0 -> csize s = 0) -> placed (el_secs el') ss pos2.
  Proof.
    intros Hnull. apply (oneseg_placed g g' (el_secs el') ss pos1 pos2 (ld_mchain L) (ld_chain L) (ld_sections L) (og_nmem O)).
    exact (relaid_null _ _ (ld_relaid L) Hnull).
  Qed.

  Hypothesis F : oneseg_file el h0 g bound ms.
  Hypothesis Hdata : forall s b, In s (el_secs el) -> s_data s = Some b -> sh_size s <= lenN b.

  Lemma laid_shoff : e_shoff h' = pos2 + (16 - pos2 mod 16).
  Proof. apply (hdr_laid_shoff _ _ _ _ _ _ (ld_fields L)). pose proof laid_pos2. pose proof (of_hcls F). lia. Qed.

  Lemma laid_phoff : e_phoff h' = e_ehsize h0.
  Proof. rewrite (hl_phoff (ld_fields L)). apply wrap_small. pose proof (og_room O). pose proof (of_hcls F). lia. Qed.

  Lemma laid_segments_plan : segments_plan (e_enc h') h' [g'] = [(e_ehsize h0, phdr_bytes (e_enc h') g')].
  Proof.
    unfold segments_plan. cbn [map]. rewrite (ld_gindex L), (of_gindex F), laid_phoff.
    rewrite (entry_pos_plain (fun _ => 0)) by (pose proof (og_room O); pose proof (of_bound F); lia).
    now rewrite N.mul_0_r, N.add_0_r.
  Qed.

  Let plan := oneseg_plan h' (el_secs el') (segments_plan (e_enc h') h' [g']).

  Theorem laid_file :
    all_disjoint plan /\
    (plan_small 0 plan ->
     let file := os_bytes (exec_plan (new_ostream None) plan) in
     file_holds file h' (el_secs el') /\ sliceN file (e_phoff h') (phdr_size (g_cls g')) = phdr_bytes (e_enc h') g').
  Proof.
    unfold plan, oneseg_plan. rewrite laid_segments_plan. fold (noseg_plan h' (el_secs el')).
    pose proof (ld_fields L) as HL. pose proof (ld_relaid L) as HR. pose proof (pad16_bounds pos2) as Hp.
    pose proof (ld_start L) as Hs.
    assert (P1 : placed (el_secs el') ss pos2) by exact (laid_placed (wo_null (of_writes F))).
    pose proof (writes_ok_relaid _ _ _ _ _ _ _ _ HL HR (of_writes F)) as P2.
    assert (P3 : e_ehsize h' <= ss) by (rewrite (hl_ehsize HL); lia).
    assert (P4 : pos2 <= e_shoff h') by (rewrite laid_shoff; lia).
    pose proof (relaid_covered _ _ HR Hdata) as P5.
    assert (P6 : forall w, In w [(e_ehsize h0, phdr_bytes (e_enc h') g')] -> e_ehsize h' <= fst w /\ fst w + lenN (snd w) <= ss).
    { intros w [<-|[]]. cbn [fst snd]. rewrite lenN_phdr_bytes, (ld_gcls L), (hl_ehsize HL). pose proof (of_phentsize F). lia. }
    assert (P7 : all_disjoint [(e_ehsize h0, phdr_bytes (e_enc h') g')]) by (cbn; auto).
    split; [exact (plan_disjoint h' _ ss pos2 _ P1 P2 P3 P4 P5 P6 P7)|]. intros Hsmall.
    destruct (plan_file_contents h' _ ss pos2 _ P1 P2 P3 P4 P5 P6 P7 Hsmall) as (C & C4).
    cbv zeta. split; [exact C|]. specialize (C4 _ (or_introl eq_refl)). cbn [fst snd] in C4. rewrite lenN_phdr_bytes in C4. rewrite laid_phoff. exact C4.
  Qed.
End Laid.
