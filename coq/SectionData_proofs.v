(* SectionData_proofs.v — section data editing refines byte-string editing (C07). *)
From ElfioV Require Import Bytes Mem SectionData.
Local Open Scope N_scope.

Lemma split3 {A} (l : list A) a b : a + b <= lenN l ->
  exists x y z, l = x ++ y ++ z /\ lenN x = a /\ lenN y = b.
Proof.
  intros H. exists (firstnN l a), (firstnN (skipnN l a) b), (skipnN (skipnN l a) b).
  rewrite !firstnN_skipnN, !lenN_firstnN, lenN_skipnN. repeat split; lia.
Qed.


(* The null pointer behaves like a pointer to the empty allocation: ranges inside
   it are empty, and those never fault. *)
Definition pbuf (p : ptr) : bytes := match p with Some b => b | None => [] end.

Lemma rd_pbuf p (x y z : bytes) off n : pbuf p = x ++ y ++ z -> lenN x = off -> lenN y = n -> rd p off n = Ok y.
Proof.
  intros E <- <-. destruct p as [b|]; cbn [pbuf] in E.
  - subst b. apply rd_mid.
  - symmetry in E. apply app_eq_nil in E as [_ E]. apply app_eq_nil in E as [-> _]. reflexivity.
Qed.

Lemma wr_pbuf p (x y z bs : bytes) off : pbuf p = x ++ y ++ z -> lenN x = off -> lenN bs = lenN y ->
  exists p', wr p off bs = Ok p' /\ pbuf p' = x ++ bs ++ z.
Proof.
  intros E <- L. destruct p as [b|]; cbn [pbuf] in E.
  - subst b. rewrite (wr_mid x y z bs L). eauto.
  - symmetry in E. apply app_eq_nil in E as [-> E]. apply app_eq_nil in E as [-> ->].
    apply lenN_0 in L. subst bs. exists None. split; reflexivity.
Qed.

(* size bound below which no header truncation and no capacity overflow occurs: a reallocation asks for
   2 * data_size + raw bytes with data_size <= 3 * size (see Inv), and 6 * 2^61 + 2^61 < 2^64 *)
Definition size_bound (c : cls) : N := match c with C32 => 2 ^ 32 | C64 => 2 ^ 61 end.

Lemma size_bound_xw c n : n < size_bound c -> n < 2 ^ xw c.
Proof. destruct c; cbn [size_bound xw]; [tauto|]. intros H. eapply N.lt_trans; [exact H|reflexivity]. Qed.
Lemma size_bound_61 c n : n < size_bound c -> n < 2 ^ 61.
Proof. destruct c; cbn [size_bound]; [|tauto]. intros H. eapply N.lt_trans; [exact H|reflexivity]. Qed.
Lemma size_bound_64 c n : n < size_bound c -> n < 2 ^ 64.
Proof. intros H. eapply N.lt_trans; [exact (size_bound_61 c n H)|reflexivity]. Qed.
Lemma size_bound_32 c n : n < 2 ^ 32 -> n < size_bound c.
Proof. destruct c; cbn [size_bound]; [tauto|]. intros H. eapply N.lt_trans; [exact H|reflexivity]. Qed.

(* the capacity is at most three times the size: a reallocation to 2 * data_size + raw from a full buffer
   (data_size < size + raw) leaves less than 3 * (size + raw) *)
Definition Inv (s : section) : Prop :=
  sh_type s <> SHT_NOBITS /\
  s_data_size s <= 3 * sh_size s /\
  match s_data s with
  | None => sh_size s = 0 /\ s_data_size s = 0
  | Some b => sh_size s <= s_data_size s /\ s_data_size s <= lenN b
  end.

Lemma Inv_iff s : Inv s <->
  sh_type s <> SHT_NOBITS /\ s_data_size s <= 3 * sh_size s /\
  sh_size s <= s_data_size s /\ s_data_size s <= lenN (pbuf (s_data s)).
Proof. unfold Inv. destruct (s_data s); cbn [pbuf lenN]; [reflexivity|intuition lia]. Qed.

Lemma contents_pbuf s : contents s = firstnN (pbuf (s_data s)) (sh_size s).
Proof. unfold contents. now destruct (s_data s). Qed.

Lemma lenN_contents s : Inv s -> lenN (contents s) = sh_size s.
Proof. rewrite Inv_iff, contents_pbuf, lenN_firstnN. lia. Qed.

Lemma contents_split s : pbuf (s_data s) = contents s ++ skipnN (pbuf (s_data s)) (sh_size s).
Proof. rewrite contents_pbuf. symmetry. apply firstnN_skipnN. Qed.

Definition edited (s s' : section) (c : bytes) (n : N) : Prop :=
  Inv s' /\ contents s' = c /\ s_cls s' = s_cls s /\ sh_type s' = sh_type s /\ sh_size s' = n.

Section Proofs.
  Variable junk : N -> N.
  Variable xe : bool.

  (* how set_data and insert_data finish: buffer [d] of capacity [ds] installed with size [n] *)
  Lemma install s d ds n v :
    sh_type s <> SHT_NOBITS -> n < size_bound (s_cls s) ->
    n <= ds -> ds <= 3 * n -> ds <= lenN (pbuf d) ->
    let s2 := with_size (with_data s d ds) n in
    let s' := if xe then with_stream_size s2 v else s2 in
    edited s s' (firstnN (pbuf d) n) n.
  Proof.
    intros Hty Hn H1 H2 H3 s2 s'.
    assert (H : edited s s2 (firstnN (pbuf d) n) n).
    { unfold edited. rewrite Inv_iff, contents_pbuf. unfold s2.
      cbn [with_size with_data s_cls sh_type sh_size s_data s_data_size].
      rewrite (wrap_small _ _ (size_bound_xw _ _ Hn)). auto 10. }
    unfold s'. destruct xe; exact H.
  Qed.

  Lemma set_data_spec s raw :
    sh_type s <> SHT_NOBITS -> lenN raw < size_bound (s_cls s) ->
    edited s (set_data xe s raw) raw (lenN raw).
  Proof.
    intros Hty Hb. unfold set_data.
    destruct (N.eqb_spec (sh_type s) SHT_NOBITS) as [E|_]; [contradiction|].
    pose proof (install s (Some raw) (lenN raw) (lenN raw) (lenN raw) Hty Hb) as H. cbn [pbuf] in H.
    rewrite (firstnN_all raw) in H by lia. apply H; lia.
  Qed.

  Lemma insert_data_nobits s pos raw :
    sh_type s = SHT_NOBITS -> insert_data junk xe s pos raw = Ok s.
  Proof. intros E. unfold insert_data. now rewrite E, N.eqb_refl. Qed.

  Lemma insert_data_exact s pos raw :
    Inv s -> pos <= sh_size s -> sh_size s + lenN raw < size_bound (s_cls s) ->
    exists s', insert_data junk xe s pos raw = Ok s' /\
      edited s s' (firstnN (contents s) pos ++ raw ++ skipnN (contents s) pos) (sh_size s + lenN raw).
  Proof.
    intros HI Hpos Hb. apply Inv_iff in HI as (Hty & H3 & Hs & Hd).
    pose proof (size_bound_61 _ _ Hb) as H61.
    unfold insert_data, XWORD_MAX.
    destruct (N.eqb_spec (sh_type s) SHT_NOBITS) as [E|_]; [contradiction|].
    replace (_ && negb (sh_size s =? 0)) with false
      by (destruct (s_data s); [reflexivity|]; cbn [pbuf lenN] in Hd; now replace (sh_size s) with 0 by lia).
    destruct (N.ltb_spec (sh_size s) pos); [lia|].
    destruct (_ - sh_size s <? lenN raw) eqn:O0; [lia|clear O0].
    (* the old buffer is A ++ T ++ R, its contents A ++ T *)
    destruct (split3 (pbuf (s_data s)) pos (sh_size s - pos)) as (A & T & R & Eb & HA & HT); [lia|].
    rewrite (contents_pbuf s), Eb, (app_assoc A T R), (firstnN_app_exact (A ++ T)) by (rewrite lenN_app; lia).
    rewrite firstnN_app_exact, skipnN_app_exact by exact HA.
    assert (Hlen : lenN (pbuf (s_data s)) = pos + (sh_size s - pos) + lenN R) by (rewrite Eb, !lenN_app; lia).
    (* both branches end with a buffer A ++ raw ++ T ++ R' *)
    assert (Fin : forall R', firstnN (A ++ raw ++ T ++ R') (sh_size s + lenN raw) = A ++ raw ++ T).
    { intros R'. replace (A ++ raw ++ T ++ R') with ((A ++ raw ++ T) ++ R') by now rewrite <- !app_assoc.
      apply firstnN_app_exact. rewrite !lenN_app. lia. }
    destruct (N.leb_spec (sh_size s + lenN raw) (s_data_size s)) as [Hcap|Hcap].
    - (* in place: the tail moves up by lenN raw, then raw is copied in *)
      rewrite (rd_pbuf _ A T R _ _ Eb HA HT). cbn [bind].
      destruct (split3 (T ++ R) (lenN raw) (sh_size s - pos)) as (Y & Z & R' & E2 & HY & HZ); [rewrite lenN_app; lia|].
      rewrite E2 in Eb.
      destruct (wr_pbuf (s_data s) (A ++ Y) Z R' T (pos + lenN raw)) as (d1 & -> & E1);
        [now rewrite <- app_assoc|rewrite lenN_app; lia|lia|]. cbn [bind].
      destruct (wr_pbuf d1 A Y (T ++ R') raw pos) as (d2 & -> & Ed); [now rewrite E1, <- app_assoc|exact HA|lia|]. cbn [bind].
      eexists; split; [reflexivity|]. rewrite <- (Fin R'), <- Ed.
      apply install; try assumption; try lia.
      rewrite Ed, !lenN_app. rewrite Eb, !lenN_app in Hd. lia.
    - (* reallocation to 2 * data_size + lenN raw *)
      destruct (_ / 2 <? s_data_size s) eqn:O1; [lia|clear O1].
      destruct (_ - 2 * s_data_size s <? lenN raw) eqn:O2; [lia|clear O2].
      rewrite (rd_pbuf _ [] A (T ++ R) 0 pos Eb eq_refl HA). cbn [bind].
      set (nds := 2 * s_data_size s + lenN raw).
      destruct (split3 (alloc junk nds) pos (lenN raw)) as (X & Y & R1 & En & HX & HY); [rewrite lenN_alloc; lia|].
      destruct (split_at R1 (sh_size s - pos)) as (Z & R3 & -> & HZ).
      { apply (f_equal lenN) in En. rewrite lenN_alloc, !lenN_app in En. lia. }
      destruct (wr_pbuf (Some (alloc junk nds)) [] X (Y ++ Z ++ R3) A 0 En eq_refl) as (n1 & -> & E1); [lia|]. cbn [bind].
      destruct (wr_pbuf n1 A Y (Z ++ R3) raw pos E1 HA) as (n2 & -> & E2); [lia|]. cbn [bind].
      rewrite (rd_pbuf _ A T R _ _ Eb HA HT). cbn [bind].
      destruct (wr_pbuf n2 (A ++ raw) Z R3 T (pos + lenN raw)) as (n3 & -> & E3);
        [now rewrite <- app_assoc|rewrite lenN_app; lia|lia|]. cbn [bind].
      rewrite <- app_assoc in E3.
      eexists; split; [reflexivity|]. rewrite <- (Fin R3), <- E3.
      apply install; try assumption; try lia.
      apply (f_equal lenN) in En. rewrite lenN_alloc in En. rewrite E3, !lenN_app in *. lia.
  Qed.

  Lemma insert_data_spec s pos raw :
    Inv s -> sh_size s + lenN raw < size_bound (s_cls s) ->
    exists s', insert_data junk xe s pos raw = Ok s' /\ Inv s' /\
      contents s' = spec_step (contents s) (DInsert pos raw) /\
      s_cls s' = s_cls s /\ sh_type s' = sh_type s /\ sh_size s' <= sh_size s + lenN raw.
  Proof.
    intros HI Hb. cbn [spec_step]. rewrite (lenN_contents s HI).
    destruct (N.ltb_spec (sh_size s) pos) as [Hpos|Hpos].
    - exists s. split; [|exact (conj HI (conj eq_refl (conj eq_refl (conj eq_refl (N.le_add_r _ _)))))].
      unfold insert_data. destruct (sh_type s =? SHT_NOBITS); [reflexivity|]. destruct (_ && _); [reflexivity|].
      apply N.ltb_lt in Hpos. now rewrite Hpos.
    - destruct (insert_data_exact s pos raw HI Hpos Hb) as (s' & E & I & C & K & T & S).
      exists s'. rewrite S. auto 10 using N.le_refl.
  Qed.

  Lemma append_data_exact s raw :
    Inv s -> sh_size s + lenN raw < size_bound (s_cls s) ->
    exists s', append_data junk xe s raw = Ok s' /\ edited s s' (contents s ++ raw) (sh_size s + lenN raw).
  Proof.
    intros HI Hb. destruct (insert_data_exact s (sh_size s) raw HI (N.le_refl _) Hb) as (s' & E & H).
    rewrite firstnN_all, skipnN_all, app_nil_r in H by (rewrite (lenN_contents s HI); lia).
    exists s'. exact (conj E H).
  Qed.

  Lemma append_data_spec s raw :
    Inv s -> sh_size s + lenN raw < size_bound (s_cls s) ->
    exists s', append_data junk xe s raw = Ok s' /\ Inv s' /\
      contents s' = contents s ++ raw /\
      s_cls s' = s_cls s /\ sh_type s' = sh_type s /\ sh_size s' <= sh_size s + lenN raw.
  Proof.
    intros HI Hb. destruct (append_data_exact s raw HI Hb) as (s' & E & I & C & K & T & S).
    exists s'. rewrite S. auto 10 using N.le_refl.
  Qed.

  Fixpoint sum_len (ops : list dop) : N :=
    match ops with
    | [] => 0
    | DSet r :: t | DAppend r :: t | DInsert _ r :: t => lenN r + sum_len t
    end.

  Lemma dstep_spec s o :
    Inv s -> sh_size s + sum_len [o] < size_bound (s_cls s) ->
    exists s', dstep junk xe s o = Ok s' /\ Inv s' /\ contents s' = spec_step (contents s) o /\
      s_cls s' = s_cls s /\ sh_size s' <= sh_size s + sum_len [o].
  Proof.
    intros HI Hb. destruct o as [raw|raw|pos raw]; cbn [sum_len dstep] in *; rewrite N.add_0_r in *.
    - destruct (set_data_spec s raw (proj1 HI) ltac:(lia)) as (I & C & K & _ & S).
      eexists. split; [reflexivity|]. rewrite S. auto using N.le_add_l.
    - destruct (append_data_spec s raw HI Hb) as (s' & E & I & C & K & _ & S). eauto 10.
    - destruct (insert_data_spec s pos raw HI Hb) as (s' & E & I & C & K & _ & S). eauto 10.
  Qed.

  Theorem drun_refines s ops :
    Inv s -> sh_size s + sum_len ops < size_bound (s_cls s) ->
    exists s', drun junk xe ops s = Ok s' /\ Inv s' /\
      contents s' = spec_run ops (contents s) /\ sh_size s' = lenN (contents s').
  Proof.
    revert s; induction ops as [|o t IH]; intros s HI Hb; cbn [drun spec_run fold_left].
    - exists s. rewrite (lenN_contents s HI). auto.
    - assert (Hl : sum_len (o :: t) = sum_len [o] + sum_len t) by (destruct o; cbn [sum_len]; lia).
      destruct (dstep_spec s o HI ltac:(lia)) as (s1 & -> & I1 & C1 & K1 & S1). cbn [bind].
      rewrite <- C1. apply IH; [exact I1|]. rewrite K1. lia.
  Qed.

  Theorem nobits_never_acquires_data s ops :
    sh_type s = SHT_NOBITS ->
    exists s', drun junk xe ops s = Ok s' /\ s_data s' = s_data s /\ sh_type s' = SHT_NOBITS.
  Proof.
    revert s; induction ops as [|o t IH]; intros s Hty; [exists s; now cbn|].
    assert (H1 : exists s1, dstep junk xe s o = Ok s1 /\ s_data s1 = s_data s /\ sh_type s1 = SHT_NOBITS).
    { destruct o as [raw|raw|pos raw]; cbn [dstep]; unfold append_data; rewrite ?insert_data_nobits by exact Hty; eauto.
      eexists. split; [reflexivity|]. unfold set_data. rewrite Hty, N.eqb_refl. destruct xe; auto. }
    destruct H1 as (s1 & E1 & D1 & T1). cbn [drun]. rewrite E1. cbn [bind].
    destruct (IH s1 T1) as (s' & E & D & T). exists s'. rewrite D, D1. auto.
  Qed.
End Proofs.

Lemma new_section_Inv c : Inv (new_section c).
Proof. apply Inv_iff. cbn. repeat split; try lia. discriminate. Qed.
