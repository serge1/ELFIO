(* Validate_oneseg.v — C20: validate() has no complaint about what the writer lays out for an object with one
   segment of automatically addressed members (plus any sections outside it). *)
From ElfioV Require Import Bytes Mem SectionData Elfio Layout Writer Layout_proofs Segment_proofs Validate_proofs
     Writer_proofs Oneseg_proofs Oneseg_writer.
Local Open Scope N_scope.

Lemma placed_not_reported secs lo hi : placed secs lo hi -> hi < 2 ^ 64 ->
  (forall s, In s secs -> sh_type s = SHT_NULL -> sh_size s = 0) ->
  (forall s, In s secs -> s_index s = 0 -> csize s = 0) ->
  forall i j a b, i < j -> nth_optN secs i = Some a -> nth_optN secs j = Some b -> sections_overlap_reported a b = false.
Proof.
  intros P Hhi Hvn Hnull i j a b Hij Ha Hb.
  destruct (sections_overlap_reported a b) eqn:Er; [|reflexivity]. exfalso.
  destruct (reported_occupies a b Er) as [Oa Ob].
  assert (G : forall s, In s secs -> occupies s -> csize s = sh_size s /\ in_file s).
  { intros s Hs (T & S & _).
    assert (C : csize s = sh_size s).
    { unfold csize, carries. apply N.eqb_neq in T. rewrite T. cbn [negb andb].
      destruct (N.eqb_spec (sh_type s) SHT_NULL) as [En|_]; [|reflexivity]. rewrite (Hvn s Hs En) in S. lia. }
    split; [exact C|]. destruct (placed_in P s Hs) as [_ B]; [intro E0; rewrite (Hnull s Hs E0) in C; lia|].
    unfold in_file. lia. }
  destruct (G a (nth_optN_In _ _ _ Ha) Oa) as [Ca Fa]. destruct (G b (nth_optN_In _ _ _ Hb) Ob) as [Cb Fb].
  apply (overlap_reported_iff a b Oa Ob Fa Fb) in Er. destruct Er as (x & [X1 X2] & [X3 X4]).
  pose proof (placed_apart P Hij Ha Hb) as Hd. unfold rng_disjoint, data_range in Hd. cbn [fst snd] in Hd.
  destruct Oa as (_ & Sa & _). destruct Ob as (_ & Sb & _). lia.
Qed.

Section LaidValidate.
  Context {el : elfio} {h0 : ehdr} {g : segment} {bound : N} {ms : list section}.
  Context {el' : elfio} {h' : ehdr} {g' : segment} {ss pos1 pos2 : N}.
  Hypothesis O : oneseg el h0 g bound ms.
  Hypothesis L : laid el h0 g ms el' h' g' ss pos1 pos2.
  Hypothesis Hvn : forall s, In s (el_secs el) -> sh_type s = SHT_NULL -> sh_size s = 0.
  Hypothesis Hzero : forall s, In s (el_secs el) -> s_index s = 0 -> sh_size s = 0 \/ sh_type s = SHT_NOBITS.

  Theorem laid_validate : validate el' = [].
  Proof.
    pose proof (ld_relaid L) as HR. pose proof (laid_pos2 O L) as Hp2. pose proof (og_bound O) as Hb.
    assert (Hnull : forall s, In s (el_secs el) -> s_index s = 0 -> csize s = 0).
    { intros s Hs E0. unfold csize, carries. destruct (Hzero s Hs E0) as [Z|Z]; rewrite Z; [now destruct (_ && _)|reflexivity]. }
    pose proof (relaid_null _ _ HR Hnull) as Hnull'.
    apply validate_clean.
    - rewrite (Forall2_lenN _ _ _ HR). exact (og_nsec O).
    - rewrite (ld_segs L). cbn. lia.
    - apply (placed_not_reported _ ss pos2 (laid_placed O L Hnull)); [lia| |exact Hnull'].
      apply (relaid_forall (fun s => sh_type s = SHT_NULL -> sh_size s = 0) _ _) with (2 := HR) (3 := Hvn).
      intros s s' R H. now rewrite (relaid_type _ _ R), (relaid_size _ _ R).
    - (* the loadable segment agrees with the program section found at its offset *)
      rewrite (ld_segs L). intros g0 sec [<-|[]] Hpt Hfz Hfind.
      destruct (find_prog_section_spec _ _ _ Hfind) as (Hin & Tp & Hoff).
      destruct (In_nth_optN _ _ Hin) as (k & Hk).
      unfold is_offset_in_section in Hoff. apply andb_true_iff in Hoff. destruct Hoff as [L1 L2].
      apply N.leb_le in L1. apply N.ltb_lt in L2. rewrite (ld_offset L) in L1, L2.
      destruct (in_dec N.eq_dec k (g_sections g)) as [Hmem|Hfree].
      + destruct (mchain_member _ _ _ _ _ _ k (ld_mchain L) Hmem) as (s0 & S0 & M1 & M2 & _ & Ma & Mb).
        rewrite Hk in S0. injection S0 as <-. destruct (laid_order L).
        rewrite (ld_offset L), (ld_vaddr L), get_virtual_addr_plain by lia. lia.
      + assert (Hsz : sh_size sec <> 0).
        { intro Z. rewrite Z, N.add_0_r in L2. pose proof (wrap_le 64 (sh_offset sec)). unfold wrap64 in L2. lia. }
        assert (Hi : s_index sec <> 0).
        { intro E0. pose proof (Hnull' sec Hin E0) as C. unfold csize, carries in C. rewrite Tp in C. contradiction. }
        destruct (free_range g g' (el_secs el') pos1 pos2 (ld_chain L) (ld_sections L) (og_nmem O) k sec Hfree Hk Hi).
        rewrite (ld_filesz L) in Hfz. lia.
  Qed.
End LaidValidate.

