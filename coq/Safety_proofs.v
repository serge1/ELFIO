(* Safety_proofs.v — C01/C18: the table readers never fault on a loaded object,
   whatever the bytes of the tables are and whatever index is asked for. *)
From ElfioV Require Import Bytes Mem Stream SectionData Strings Elfio Table Accessors Elfio_proofs Loader Load_proofs.
From Coq Require Import ZifyBool ZifyN ZifyNat.
Local Open Scope N_scope.

(* the pointer a section hands out covers the section's recorded size *)
Definition buf_ok (s : section) (p : ptr) : Prop :=
  match p with Some b => sh_size s < lenN b | None => True end.

Lemma wrap64_le v : wrap64 v <= v.
Proof. apply wrap_le. Qed.
Lemma wrap32_le v : wrap32 v <= v.
Proof. apply wrap_le. Qed.

Lemma rd_total (b : bytes) off n : off + n <= lenN b -> exists r, rd (Some b) off n = Ok r /\ lenN r = n.
Proof. intros H. exists (sliceN b off n). split; [now apply rd_some|now apply lenN_sliceN_in]. Qed.
(* [w] is the width as a number, so that callers meet a numeral *)
Lemma rd_word_total e (b : bytes) off n w : w = N.of_nat n -> off + w <= lenN b -> exists v, rd_word e (Some b) off n = Ok v.
Proof. intros Hw H. rewrite (rd_word_some e b off n w Hw H). eauto. Qed.

Lemma slot_inside base i n w lim : i < n -> base + n * w <= lim -> base + i * w + w <= lim.
Proof. intros Hi Hl. assert ((i + 1) * w <= n * w) by (apply N.mul_le_mono_r; lia). lia. Qed.

Lemma entry_inside num esz size index w len :
  index < num -> num * esz <= size -> w <= esz -> size < len -> wrap64 (index * esz) + w <= len.
Proof.
  intros Hi Hn Hw Hl. pose proof (wrap64_le (index * esz)). pose proof (slot_inside 0 index num esz size Hi Hn). lia.
Qed.

Lemma get_symbols_num_bound el s :
  get_symbols_num el s * sh_entsize s <= sh_size s /\
  (0 < get_symbols_num el s -> layout_sz (sym_layout (acls el)) <= sh_entsize s).
Proof.
  unfold get_symbols_num, acls, class32. set (cb := el_class_byte el).
  destruct ((cb =? 1) || (cb =? 2)); [|cbn; lia].
  destruct (N.leb_spec (if cb =? 1 then 16 else 24) (sh_entsize s)) as [H|]; cbn [andb]; [|cbn; lia].
  destruct (sh_size s <=? s_stream_size s); [|cbn; lia]. split; [apply div_mul_le|]. intros _. destruct (cb =? 1); exact H.
Qed.
(* entries are 16 bytes or more, so there are no more of them than bytes *)
Lemma get_symbols_num_le el s : get_symbols_num el s <= sh_size s.
Proof.
  destruct (get_symbols_num_bound el s) as [N1 N2]. destruct (N.eq_dec (get_symbols_num el s) 0) as [->|Hn]; [lia|].
  specialize (N2 ltac:(lia)). assert (1 <= sh_entsize s) by (destruct (acls el); cbn in N2; lia). nia.
Qed.

Theorem sym_get_core_total c enc s p num index :
  buf_ok s p -> num * sh_entsize s <= sh_size s -> (0 < num -> layout_sz (sym_layout c) <= sh_entsize s) ->
  exists r, sym_get_core c enc s p num index = Ok r.
Proof.
  intros Hb Hn Hl. unfold sym_get_core. destruct p as [b|]; [|eauto].
  destruct (N.ltb_spec index num) as [Hi|]; [|eauto].
  destruct (rd_total b (wrap64 (index * sh_entsize s)) (layout_sz (sym_layout c))) as (r & -> & _); [|cbn [bind]; eauto].
  exact (entry_inside _ _ _ _ _ _ Hi Hn (Hl ltac:(lia)) Hb).
Qed.

Theorem rel_get_core_total c enc s p index :
  buf_ok s p -> exists r, rel_get_core c enc s p index = Ok r.
Proof.
  intros Hb. unfold rel_get_core, rel_entries_num.
  destruct (N.eqb_spec (sh_entsize s) 0) as [E0|E0]; cbv iota; [destruct (N.leb_spec 0 index); [eauto|lia]|].
  destruct (N.leb_spec (sh_size s / sh_entsize s) index) as [|Hi]; [eauto|].
  destruct (negb _); [eauto|].
  set (lay := if sh_type s =? SHT_REL then rel_layout c else rela_layout c).
  destruct (N.ltb_spec (sh_entsize s) (layout_sz lay)) as [|Hl]; [eauto|].
  destruct p as [b|]; [|eauto].
  destruct (rd_total b (wrap64 (index * sh_entsize s)) (layout_sz lay)) as (r & -> & _); [|cbn [bind]; eauto].
  exact (entry_inside _ _ _ _ _ _ Hi (div_mul_le _ _) Hl Hb).
Qed.

Theorem arr_get_core_total enc s p w index :
  buf_ok s p -> (w = 4 \/ w = 8) -> exists r, arr_get_core enc s p w index = Ok r.
Proof.
  intros Hb Hw. unfold arr_get_core, arr_entries_num.
  destruct (N.leb_spec (sh_size s / w) index) as [|Hi]; [eauto|]. destruct p as [b|]; [|eauto].
  destruct (rd_word_total enc b (wrap64 (index * w)) (N.to_nat w) w (eq_sym (N2Nat.id w))) as (v & ->); [|cbn [bind]; eauto].
  exact (entry_inside _ _ _ _ _ _ Hi (div_mul_le _ _) (N.le_refl w) Hb).
Qed.

Theorem dyn_raw_core_total c enc s p index :
  buf_ok s p -> index < sh_size s / sh_entsize s ->
  exists r, dyn_raw_core c enc s p index = Ok r.
Proof.
  intros Hb Hi. unfold dyn_raw_core. destruct p as [b|]; [|eauto].
  destruct (N.ltb_spec (sh_entsize s) (layout_sz (dyn_layout c))) as [|Hl]; [eauto|].
  destruct (N.eqb_spec (sh_entsize s) 0) as [E0|E0]; [rewrite E0 in Hi; cbn in Hi; lia|].
  destruct (_ <? index); [eauto|]. destruct (_ <? wrap64 _); [eauto|].
  destruct (rd_total b (wrap64 (index * sh_entsize s)) (layout_sz (dyn_layout c))) as (r & -> & _); [|cbn [bind]; eauto].
  eapply entry_inside; [exact Hi|apply div_mul_le|exact Hl|exact Hb].
Qed.

Theorem dyn_count_core_total fuel c enc s p : forall i n,
  buf_ok s p -> n <= sh_size s / sh_entsize s -> n < i + lenN fuel ->
  exists r, dyn_count_core fuel c enc s p i n = Ok r /\ r <= N.max i n.
Proof.
  induction fuel as [|u f IH]; intros i n Hb Hn Hf.
  - cbn [lenN] in Hf. unfold dyn_count_core. destruct (N.ltb_spec i n); [lia|]. exists i. split; [reflexivity|lia].
  - rewrite lenN_cons in Hf. cbn [dyn_count_core]. destruct (N.ltb_spec i n) as [Hi|Hi]; [|exists i; split; [reflexivity|lia]].
    destruct (dyn_raw_core_total c enc s p i Hb ltac:(lia)) as ([tag v] & ->). cbn [bind].
    destruct (tag =? DT_NULL); [exists i; split; [reflexivity|lia]|].
    destruct (IH (i + 1) n Hb Hn ltac:(lia)) as (r & -> & Hr). exists r. split; [reflexivity|lia].
Qed.

Theorem scan_values_total fuel c enc s p value : forall i n,
  buf_ok s p -> n * sh_entsize s <= sh_size s -> (0 < n -> layout_sz (sym_layout c) <= sh_entsize s) ->
  n <= i + lenN fuel ->
  exists r, scan_values fuel p c enc (sh_entsize s) value i n = Ok r.
Proof.
  induction fuel as [|u f IH]; intros i n Hb Hn Hl Hf.
  - cbn [lenN] in Hf. unfold scan_values. destruct (N.ltb_spec i n); [lia|eauto].
  - rewrite lenN_cons in Hf. cbn [scan_values]. destruct (N.ltb_spec i n) as [Hi|Hi]; [|eauto].
    destruct p as [b|]; [|eauto].
    destruct (rd_total b (wrap64 (i * sh_entsize s)) (layout_sz (sym_layout c))) as (r & -> & _);
      [exact (entry_inside _ _ _ _ _ _ Hi Hn (Hl ltac:(lia)) Hb)|].
    cbn [bind]. destruct (_ =? value); [eauto|]. apply IH; auto. lia.
Qed.

Theorem ver_chain_total fuel enc (b : bytes) size recsz nxt_off : forall off no,
  size < lenN b -> nxt_off + 4 <= recsz -> recsz <= size -> off <= size - recsz ->
  size - recsz - off < lenN fuel ->
  exists r, ver_chain fuel enc (Some b) size recsz nxt_off off no = Ok r /\
            (forall o, r = Some o -> o <= size - recsz).
Proof.
  induction fuel as [|u f IH]; intros off no Hb Hn Hr Ho Hf; [cbn [lenN] in Hf; lia|].
  rewrite lenN_cons in Hf. cbn [ver_chain].
  destruct (no =? 0); [exists (Some off); split; [reflexivity|intros o [= <-]; exact Ho]|].
  destruct (rd_word_total enc b (off + nxt_off) 4 4 eq_refl) as (nx & ->); [lia|]. cbn [bind].
  destruct (N.eqb_spec nx 0); [exists (Some off); split; [reflexivity|intros o [= <-]; exact Ho]|].
  destruct (N.ltb_spec (size - recsz) (off + nx)); [exists None; split; [reflexivity|discriminate]|].
  apply IH; try assumption; lia.
Qed.

(* a recorded note position: header and both padded fields lie inside the section *)
Definition note_pos_ok (enc : endian) (b : bytes) (size pos : N) : Prop :=
  exists namesz descsz,
    rd_word enc (Some b) pos 4 = Ok namesz /\ rd_word enc (Some b) (pos + 4) 4 = Ok descsz /\
    pos + 12 + pad4_32 namesz + pad4_32 descsz <= size /\ namesz < size /\ descsz < size.

Theorem note_walk_total fuel enc (b : bytes) size : forall current acc,
  size < lenN b -> size < 2 ^ 30 -> current <= size -> size - current < lenN fuel ->
  exists r, note_walk fuel (Some b) enc size current acc = Ok r /\
            (Forall (note_pos_ok enc b size) acc -> Forall (note_pos_ok enc b size) r).
Proof.
  induction fuel as [|u f IH]; intros current acc Hb Hs Hc Hf; [cbn [lenN] in Hf; lia|].
  rewrite lenN_cons in Hf. cbn [note_walk].
  unfold wrap64, wrap32. rewrite (wrap_small 64) by lia.
  destruct (N.leb_spec (current + 12) size) as [H|H]; [|eauto].
  destruct (rd_word_total enc b current 4 4 eq_refl) as (namesz & En); [lia|]. rewrite En. cbn [bind].
  destruct (rd_word_total enc b (current + 4) 4 4 eq_refl) as (descsz & Ed); [lia|]. rewrite Ed. cbn [bind].
  destruct (N.ltb_spec namesz size) as [Hn|Hn]; cbn [andb]; [|eauto].
  destruct (N.ltb_spec descsz size) as [Hd|Hd]; cbn [andb]; [|eauto].
  pose proof (pad4_32_bounds namesz ltac:(lia)) as P1. pose proof (pad4_32_bounds descsz ltac:(lia)) as P2.
  rewrite (wrap_small 32) by lia. set (advance := 12 + pad4_32 namesz + pad4_32 descsz) in *.
  rewrite (wrap_small 64) by lia.
  destruct (N.leb_spec (current + advance) size) as [Ha|Ha]; [|eauto].
  destruct (IH (current + advance) (acc ++ [current]) Hb Hs Ha ltac:(lia)) as (r & -> & Hr).
  exists r. split; [reflexivity|]. intro Hacc. apply Hr. apply Forall_app. split; [exact Hacc|].
  constructor; [|constructor]. exists namesz, descsz. repeat split; try assumption. lia.
Qed.

Section ElLevel.
  Variable junk : N -> N.
  Variable host : endian.

  Definition same_shape (el el1 : elfio) : Prop :=
    lenN (el_secs el1) = lenN (el_secs el) /\ el_hdr el1 = el_hdr el /\ el_xlat el1 = el_xlat el /\
    (forall j g, get_seg el j = Some g -> exists g', get_seg el1 j = Some g' /\ p_filesz g' = p_filesz g) /\
    (forall j s, get_sec el j = Some s -> exists s', get_sec el1 j = Some s' /\ hdr_same s s').
  Lemma same_shape_refl el : same_shape el el.
  Proof. repeat split; [intros j g H; eauto|]. intros j s H. exists s. split; [exact H|apply hdr_same_refl]. Qed.
  Lemma same_shape_trans a b c : same_shape a b -> same_shape b c -> same_shape a c.
  Proof.
    unfold same_shape. intros (?&?&?&G1&F1) (?&?&?&G2&F2). repeat split; try congruence.
    { intros j g Hg. destruct (G1 j g Hg) as (g' & Hg' & E1). destruct (G2 j g' Hg') as (g'' & Hg'' & E2).
      exists g''. split; [exact Hg''|congruence]. }
    intros j s Hs. destruct (F1 j s Hs) as (s' & Hs' & HS1). destruct (F2 j s' Hs') as (s'' & Hs'' & HS2).
    exists s''. split; [exact Hs''|]. eapply hdr_same_trans; eauto.
  Qed.
  Lemma same_shape_sec el el1 i s : same_shape el el1 -> get_sec el i = Some s -> exists s1, get_sec el1 i = Some s1 /\ hdr_same s s1.
  Proof. intros H. apply H. Qed.
  Lemma same_shape_seg el el1 j g : same_shape el el1 -> get_seg el j = Some g -> exists g1, get_seg el1 j = Some g1 /\ p_filesz g1 = p_filesz g.
  Proof. intros H. apply H. Qed.
  Lemma same_shape_hdr el el1 : same_shape el el1 -> el_hdr el1 = el_hdr el.
  Proof. intros H. apply H. Qed.

  Lemma same_shape_upd_sec el i s0 s1 sto :
    get_sec el i = Some s0 -> hdr_same s0 s1 -> same_shape el (with_stream (upd_sec el i s1) sto).
  Proof.
    intros Hg HS. unfold same_shape. cbn. rewrite lenN_updN. do 3 (split; [reflexivity|]).
    split; [intros j g Hj; exists g; split; [exact Hj|reflexivity]|].
    exact (updN_pointwise hdr_same _ _ _ _ hdr_same_refl Hg HS).
  Qed.
  Lemma same_shape_upd_seg el j g0 g1 sto :
    get_seg el j = Some g0 -> p_filesz g1 = p_filesz g0 -> same_shape el (with_stream (upd_seg el j g1) sto).
  Proof.
    intros Hg Z. unfold same_shape. cbn. do 3 (split; [reflexivity|]).
    split; [|intros i x Hx; exists x; split; [exact Hx|apply hdr_same_refl]].
    exact (updN_pointwise (fun g g' => p_filesz g' = p_filesz g) _ _ _ _ (fun _ => eq_refl) Hg Z).
  Qed.

  Definition has_sec (el : elfio) (i : N) : Prop := exists s, get_sec el i = Some s.
  Lemma has_sec_kept el el1 i : same_shape el el1 -> has_sec el i -> has_sec el1 i.
  Proof. intros SH (s & Hg). destruct (same_shape_sec _ _ _ _ SH Hg) as (s1 & G1 & _). exists s1. exact G1. Qed.

  Definition kept (content : bytes) (k : skind) (el el1 : elfio) : Prop :=
    loaded_ok content k el1 /\ same_shape el el1.
  Lemma kept_ok {content k el el1} : kept content k el el1 -> loaded_ok content k el1.
  Proof. intros K. apply K. Qed.
  Lemma kept_shape {content k el el1} : kept content k el el1 -> same_shape el el1.
  Proof. intros K. apply K. Qed.
  Lemma kept_refl content k el : loaded_ok content k el -> kept content k el el.
  Proof. intros L. split; [exact L|apply same_shape_refl]. Qed.
  Lemma kept_trans content k a b c : kept content k a b -> kept content k b c -> kept content k a c.
  Proof. intros [_ S1] [L S2]. split; [exact L|exact (same_shape_trans _ _ _ S1 S2)]. Qed.
  Lemma kept_bind {A B} content k el (m : res (elfio * A)) (f : elfio * A -> res (elfio * B)) :
    (exists el1 a, m = Ok (el1, a) /\ kept content k el el1) ->
    (forall el1 a, loaded_ok content k el1 -> same_shape el el1 ->
                   exists el2 b, f (el1, a) = Ok (el2, b) /\ kept content k el1 el2) ->
    exists el2 b, bind m f = Ok (el2, b) /\ kept content k el el2.
  Proof.
    intros (el1 & a & -> & K) H. destruct (H el1 a (kept_ok K) (kept_shape K)) as (el2 & b & E & K2). eauto using kept_trans.
  Qed.

  Lemma sec_data_total content k el i s0 :
    loaded_ok content k el -> get_sec el i = Some s0 ->
    exists el1 s1,
      sec_data junk el i = Ok (el1, s_data s1, s1) /\
      kept content k el el1 /\ get_sec el1 i = Some s1 /\
      buf_ok s1 (s_data s1) /\ hdr_same s0 s1.
  Proof.
    intros L Hget. pose proof L as (Hf & _ & st & Hs & _). unfold sec_data, el_sec_get_data. rewrite Hget, Hs.
    destruct (sec_get_data_total junk st (el_xlat el) s0 (Forall_nth_optN _ _ _ _ Hf Hget)) as (st1 & s1 & al & -> & F1 & HS & SS & _).
    cbn [bind].
    assert (G1 : get_sec (with_stream (upd_sec el i s1) (Some st1)) i = Some s1)
      by exact (get_upd_sec el i s1 (get_sec_lt el i s0 Hget)).
    rewrite G1. eexists _, s1. split; [reflexivity|]. split; [|auto].
    split; [exact (loaded_ok_upd_sec _ _ _ _ _ _ _ L Hs SS F1)|exact (same_shape_upd_sec _ _ _ _ _ Hget HS)].
  Qed.

  (* with [H : loaded_ok .. el] and [get_sec el i = Some _] at hand: run sec_data on section i and name what
     sec_data_total gives *)
  Ltac use_sec_data H el i :=
    let el1 := fresh "el1" in let s1 := fresh "s1" in let E := fresh "E" in
    let K := fresh "K" in let G := fresh "G" in let B := fresh "B" in let HS := fresh "HS" in
    match goal with
    | Hg : get_sec el i = Some ?s0 |- _ =>
        destruct (sec_data_total _ _ el i s0 H Hg) as (el1 & s1 & E & K & G & B & HS); rewrite E; cbn [bind]
    end.

  Lemma lookup_str_total content k el strsec idx :
    loaded_ok content k el ->
    exists el1 r, lookup_str junk el strsec idx = Ok (el1, r) /\ kept content k el el1.
  Proof.
    intros H. unfold lookup_str. destruct (get_sec el strsec) as [s0|] eqn:Hg; [|eauto using kept_refl].
    use_sec_data H el strsec.
    destruct (s_data s1) as [b|] eqn:Ed; [|cbn [get_string_raw bind]; eauto].
    cbn in B. destruct (get_string_raw_total b (sh_size s1) (wrap32 idx) ltac:(lia)) as (r & Er).
    unfold bytes in *. rewrite Er. cbn [bind]. eauto.
  Qed.

  Theorem get_symbol_total content k el symsec index s0 :
    loaded_ok content k el -> get_sec el symsec = Some s0 ->
    exists el1 r, get_symbol junk el symsec index = Ok (el1, r) /\ kept content k el el1.
  Proof.
    intros H Hg. unfold get_symbol. use_sec_data H el symsec.
    pose proof (get_symbols_num_bound el1 s1) as [N1 N2].
    destruct (sym_get_core_total (acls el1) (el_enc el1) s1 (s_data s1) (get_symbols_num el1 s1) index B N1 N2) as (r & ->).
    cbn [bind]. destruct r as [y|]; [|eauto].
    destruct (lookup_str_total content k el1 (wrap16 (sh_link s1)) (st_name y) (kept_ok K)) as (el2 & nm & -> & K2).
    cbn [bind]. eauto using kept_trans.
  Qed.

  Lemma buf_ok_same s0 s1 p : hdr_same s0 s1 -> buf_ok s1 p -> buf_ok s0 p.
  Proof. intros HS. unfold buf_ok. now rewrite (hdr_same_size _ _ HS). Qed.

  Theorem rel_get_entry_total content k el relsec index s0 :
    loaded_ok content k el -> get_sec el relsec = Some s0 ->
    exists el1 r, rel_get_entry junk el relsec index = Ok (el1, r) /\ kept content k el el1.
  Proof.
    intros H Hg. unfold rel_get_entry. rewrite Hg.
    destruct (rel_needs_data (acls el) s0 index); [|eauto using kept_refl].
    use_sec_data H el relsec.
    destruct (rel_get_core_total (acls el1) (el_enc el1) s0 (s_data s1) index (buf_ok_same _ _ _ HS B)) as (r & ->).
    cbn [bind]. eauto.
  Qed.

  Theorem rel_get_entry_full_total content k el relsec index s0 :
    loaded_ok content k el -> get_sec el relsec = Some s0 ->
    exists el1 r, rel_get_entry_full junk el relsec index = Ok (el1, r) /\ kept content k el el1.
  Proof.
    intros H Hg. unfold rel_get_entry_full.
    destruct (rel_get_entry_total content k el relsec index s0 H Hg) as (el1 & r & -> & K1). cbn [bind].
    destruct (same_shape_sec el el1 relsec s0 (kept_shape K1) Hg) as (s1 & -> & _).
    destruct (get_sec el1 (wrap16 (sh_link s1))) as [ss|] eqn:Hs; [|eauto].
    destruct r as [v|]; [|eauto].
    destruct (get_symbol_total content k el1 (wrap16 (sh_link s1)) (rv_symbol v) ss (kept_ok K1) Hs) as (el2 & sv & -> & K2).
    cbn [bind]. destruct sv; eauto using kept_trans.
  Qed.

  Theorem arr_get_entry_total content k el sec w index s0 :
    loaded_ok content k el -> get_sec el sec = Some s0 -> (w = 4 \/ w = 8) ->
    exists el1 r, arr_get_entry junk el sec w index = Ok (el1, r) /\ kept content k el el1.
  Proof.
    intros H Hg Hw. unfold arr_get_entry. rewrite Hg.
    destruct (arr_entries_num s0 w <=? index); [eauto using kept_refl|].
    use_sec_data H el sec.
    destruct (arr_get_core_total (el_enc el1) s0 (s_data s1) w index (buf_ok_same _ _ _ HS B) Hw) as (r & ->). cbn [bind]. eauto.
  Qed.

  Theorem vs_get_total content k el a no :
    loaded_ok content k el ->
    (forall s, get_sec el (va_sec a) = Some s -> va_num a * 2 <= sh_size s) ->
    exists el1 r, vs_get junk host el a no = Ok (el1, r) /\ kept content k el el1.
  Proof.
    intros H Hn. unfold vs_get. destruct (get_sec el (va_sec a)) as [s0|] eqn:Hg; [|eauto using kept_refl].
    destruct (N.ltb_spec (wrap32 no) (va_num a)); [|eauto using kept_refl].
    use_sec_data H el (va_sec a). specialize (Hn s0 eq_refl).
    destruct (s_data s1) as [b|] eqn:Ed; [|eauto]. cbn in B. rewrite (hdr_same_size _ _ HS) in B.
    destruct (rd_word_total host b (wrap32 no * 2) 2 2 eq_refl) as (v & ->); [lia|]. cbn [bind]. eauto.
  Qed.

  Theorem dyn_raw_entry_total content k el dynsec index s0 :
    loaded_ok content k el -> get_sec el dynsec = Some s0 -> index < sh_size s0 / sh_entsize s0 ->
    exists el1 tag v, dyn_raw_entry junk el dynsec index = Ok (el1, tag, v) /\ loaded_ok content k el1 /\ same_shape el el1.
  Proof.
    intros H Hg Hi. unfold dyn_raw_entry. use_sec_data H el dynsec.
    rewrite <- (hdr_same_size _ _ HS), <- (hdr_same_entsize _ _ HS) in Hi.
    destruct (dyn_raw_core_total (acls el1) (el_enc el1) s1 (s_data s1) index B Hi) as ([tag v] & ->).
    cbn [bind]. eauto.
  Qed.

  Definition has_entries (el : elfio) (i n : N) : Prop :=
    exists s, get_sec el i = Some s /\ n <= sh_size s / sh_entsize s.
  Lemma has_entries_kept el el1 i n : same_shape el el1 -> has_entries el i n -> has_entries el1 i n.
  Proof.
    intros SH (s & Hg & Hn). destruct (same_shape_sec _ _ _ _ SH Hg) as (s1 & G1 & HS).
    exists s1. now rewrite (hdr_same_size _ _ HS), (hdr_same_entsize _ _ HS).
  Qed.

  Theorem dyn_get_entry_with_total content k el dynsec num index :
    loaded_ok content k el -> has_entries el dynsec num ->
    exists el1 t r, dyn_get_entry_with junk el dynsec num index = Ok (el1, t, r) /\ kept content k el el1.
  Proof.
    intros H (s0 & Hg & Hn). unfold dyn_get_entry_with.
    destruct (N.leb_spec num index); [eauto 6 using kept_refl|].
    destruct (dyn_raw_entry_total content k el dynsec index s0 H Hg ltac:(lia)) as (el1 & tag & v & -> & K).
    cbn [bind]. destruct (dyn_is_string_tag tag); [|eauto 6].
    destruct (same_shape_sec _ _ _ _ (kept_shape K) Hg) as (s1 & -> & _).
    destruct (lookup_str_total content k el1 (wrap16 (sh_link s1)) (wrap32 v) (kept_ok K)) as (el2 & r & -> & K2).
    cbn [bind]. destruct r; eauto 6 using kept_trans.
  Qed.

  Lemma dyn_touch_total content k fuel : forall el dynsec n i upto,
    loaded_ok content k el -> has_entries el dynsec n -> n < i + lenN fuel ->
    exists el1, dyn_touch junk fuel el dynsec n i upto = Ok el1 /\ kept content k el el1.
  Proof.
    induction fuel as [|u f IH]; intros el dynsec n i upto H Hn Hf.
    - cbn [lenN] in Hf. unfold dyn_touch. destruct (N.ltb_spec i n); [lia|]. rewrite andb_false_r.
      eauto using kept_refl.
    - rewrite lenN_cons in Hf. cbn [dyn_touch]. destruct ((i <=? upto) && (i <? n)); [|eauto using kept_refl].
      destruct (dyn_get_entry_with_total content k el dynsec n i H Hn) as (el1 & t & r & -> & K1).
      cbn [bind].
      destruct (IH el1 dynsec n (i + 1) upto (kept_ok K1) (has_entries_kept _ _ _ _ (kept_shape K1) Hn) ltac:(lia)) as (el2 & -> & K2).
      eauto using kept_trans.
  Qed.

  Theorem dyn_entries_num_total content k el a :
    loaded_ok content k el -> has_entries el (da_sec a) (da_num a) ->
    exists el1 a1 num, dyn_entries_num junk el a = Ok (el1, a1, num) /\ kept content k el el1 /\
      da_sec a1 = da_sec a /\ has_entries el1 (da_sec a) num.
  Proof.
    intros H Hn. pose proof Hn as (s0 & Hg & Hn0). unfold dyn_entries_num. rewrite Hg.
    destruct (_ && _); [|exists el, a, (da_num a); auto using kept_refl].
    use_sec_data H el (da_sec a).
    destruct (s_data s1) as [b|] eqn:Ed; [|exists el1, a, (da_num a); eauto using has_entries_kept, (kept_shape K)].
    set (n := sh_size s0 / sh_entsize s0).
    assert (Hnb : n < lenN b).
    { cbn in B. rewrite (hdr_same_size _ _ HS) in B. pose proof (div_mul_le (sh_size s0) (sh_entsize s0)).
      destruct (N.eq_dec (sh_entsize s0) 0) as [Ez|Ez]; [unfold n; rewrite Ez; cbn; lia|]. unfold n. nia. }
    assert (Hn1 : has_entries el1 (da_sec a) n).
    { apply (has_entries_kept el _ _ _ (kept_shape K)). exists s0. split; [exact Hg|apply N.le_refl]. }
    destruct (dyn_count_core_total (0 :: b) (acls el1) (el_enc el1) s1 (Some b) 0 n) as (i & -> & Hi).
    { exact B. } { destruct Hn1 as (s & Gs & Hs). rewrite G in Gs. now injection Gs as <-. } { rewrite lenN_cons. lia. }
    cbn [bind].
    destruct (dyn_touch_total content k (0 :: b) el1 (da_sec a) n 0 i (kept_ok K) Hn1 ltac:(rewrite lenN_cons; lia))
      as (el2 & -> & K2).
    cbn [bind]. eexists _, _, _. split; [reflexivity|]. split; [exact (kept_trans _ _ _ _ _ K K2)|]. split; [reflexivity|].
    destruct (has_entries_kept _ _ _ _ (kept_shape K2) Hn1) as (s2 & G2 & Hs2). exists s2. split; [exact G2|lia].
  Qed.

  Theorem dyn_get_entry_total content k el a index :
    loaded_ok content k el ->
    (forall s, get_sec el (da_sec a) = Some s -> da_num a <= sh_size s / sh_entsize s) ->
    (exists s, get_sec el (da_sec a) = Some s) ->
    exists el1 a1 r, dyn_get_entry junk el a index = Ok (el1, a1, r) /\ kept content k el el1.
  Proof.
    intros H Hn (s0 & Hg). unfold dyn_get_entry.
    destruct (dyn_entries_num_total content k el a H) as (el1 & a1 & num & -> & K1 & A1 & Hn1); [exists s0; auto|].
    cbn [bind]. rewrite A1.
    destruct (dyn_get_entry_with_total content k el1 (da_sec a) num index (kept_ok K1) Hn1) as (el2 & t & r & -> & K2).
    cbn [bind]. eexists _, _, _. split; [reflexivity|exact (kept_trans _ _ _ _ _ K1 K2)].
  Qed.

  Theorem get_symbol_by_value_total content k el symsec value s0 :
    loaded_ok content k el -> get_sec el symsec = Some s0 ->
    exists el1 r, get_symbol_by_value junk el symsec value = Ok (el1, r) /\ kept content k el el1.
  Proof.
    intros H Hg. unfold get_symbol_by_value. use_sec_data H el symsec.
    pose proof (get_symbols_num_bound el1 s1) as [N1 N2]. pose proof (get_symbols_num_le el1 s1) as Nle.
    set (n := get_symbols_num el1 s1) in *.
    assert (Fin : forall r : option N, exists el2 r2,
              match r with Some idx => get_symbol junk el1 symsec idx | None => Ok (el1, None) end = Ok (el2, r2) /\
              kept content k el el2).
    { intros [idx|]; [|eauto]. destruct (get_symbol_total content k el1 symsec idx s1 (kept_ok K) G) as (el2 & r & -> & K2).
      eauto using kept_trans. }
    destruct (s_data s1) as [b|] eqn:Ed.
    - destruct (scan_values_total (0 :: b) (acls el1) (el_enc el1) s1 (Some b) value 0 n B N1 N2) as (r & ->);
        [rewrite lenN_cons; cbn in B; lia|].
      cbn [bind]. apply Fin.
    - cbn [scan_values]. destruct (0 <? n); cbn [bind]; apply (Fin None).
  Qed.

  Lemma el_seg_get_data_total content k el j g0 :
    loaded_ok content k el -> get_seg el j = Some g0 ->
    exists el1 g1, el_seg_get_data el j = Ok (el1, g_data g1) /\ kept content k el el1 /\
      get_seg el1 j = Some g1 /\ gfits g1 /\ p_filesz g1 = p_filesz g0.
  Proof.
    intros L Hget. pose proof L as (_ & Hg & st & Hs & _). unfold el_seg_get_data. rewrite Hget, Hs.
    destruct (seg_get_data_total st (el_xlat el) g0 (Forall_nth_optN _ _ _ _ Hg Hget)) as (st1 & g1 & al & -> & F1 & Z1 & SS).
    cbn [bind]. eexists _, g1. split; [reflexivity|].
    split; [split; [exact (loaded_ok_upd_seg _ _ _ _ _ _ _ L Hs SS F1)|exact (same_shape_upd_seg _ _ _ _ _ Hget Z1)]|].
    split; [|auto]. apply nth_optN_updN_same. eapply nth_optN_lt. exact Hget.
  Qed.

  Definition note_starts_ok (el : elfio) (a : note_acc) : Prop :=
    match na_target a with
    | NoteSec i => forall s b, get_sec el i = Some s -> s_data s = Some b ->
                               Forall (note_pos_ok (el_enc el) b (sh_size s)) (na_starts a)
    | NoteSeg j => forall g b, get_seg el j = Some g -> g_data g = Some b ->
                               Forall (note_pos_ok (el_enc el) b (p_filesz g)) (na_starts a)
    end.

  Lemma note_data_total content k el t :
    loaded_ok content k el ->
    match t with NoteSec i => exists s, get_sec el i = Some s | NoteSeg j => exists g, get_seg el j = Some g end ->
    exists el1 p size, note_data junk el t = Ok (el1, p, size) /\ kept content k el el1 /\
      match p with Some b => size < lenN b | None => True end /\
      match t with
      | NoteSec i => exists s, get_sec el1 i = Some s /\ s_data s = p /\ sh_size s = size
      | NoteSeg j => exists g, get_seg el1 j = Some g /\ g_data g = p /\ p_filesz g = size
      end.
  Proof.
    intros H Ht. unfold note_data. destruct t as [i|j].
    - destruct Ht as (s0 & Hg). use_sec_data H el i. eauto 10.
    - destruct Ht as (g0 & Hg). destruct (el_seg_get_data_total content k el j g0 H Hg) as (el1 & g1 & -> & K & G & F & Z).
      cbn [bind]. rewrite G. eauto 10.
  Qed.

  Theorem note_new_total content k el t :
    loaded_ok content k el -> lenN content < 2 ^ 30 ->
    match t with NoteSec i => exists s, get_sec el i = Some s /\ sh_size s < 2 ^ 30
               | NoteSeg j => exists g, get_seg el j = Some g /\ p_filesz g < 2 ^ 30 end ->
    exists el1 a, note_new junk el t = Ok (el1, a) /\ loaded_ok content k el1 /\ same_shape el el1 /\
                  na_target a = t /\ note_starts_ok el1 a.
  Proof.
    intros H _ Ht. unfold note_new.
    destruct (note_data_total content k el t H) as (el1 & p & size & -> & [L SH] & B & T).
    { destruct t; destruct Ht as (x & ? & _); eauto. }
    cbn [bind].
    assert (Hsz : size < 2 ^ 30).
    { destruct t as [i|j].
      - destruct Ht as (s0 & Hg & Hs). destruct T as (s1 & G1 & _ & <-).
        destruct (same_shape_sec _ _ _ _ SH Hg) as (s' & G' & HS). rewrite G1 in G'. injection G' as <-.
        now rewrite (hdr_same_size _ _ HS).
      - destruct Ht as (g0 & Hg & Hs). destruct T as (g1 & G1 & _ & <-).
        destruct (same_shape_seg _ _ _ _ SH Hg) as (g' & G' & Z). rewrite G1 in G'. injection G' as <-. now rewrite Z. }
    (* the positions are recorded over the very buffer and size the object now reports *)
    assert (Fin : forall r, (forall b, p = Some b -> Forall (note_pos_ok (el_enc el1) b size) r) ->
                    exists el2 a, Ok (el1, mkNoteAcc t r) = Ok (el2, a) /\ loaded_ok content k el2 /\ same_shape el el2 /\
                                  na_target a = t /\ note_starts_ok el2 a).
    { intros r Hr. eexists _, _. split; [reflexivity|]. split; [exact L|]. split; [exact SH|]. split; [reflexivity|].
      unfold note_starts_ok. cbn. destruct t as [i|j].
      - destruct T as (s1 & G1 & D1 & Z1). intros s b' Hs Hb. rewrite G1 in Hs. injection Hs as <-. rewrite Z1. apply Hr. congruence.
      - destruct T as (g1 & G1 & D1 & Z1). intros g b' Hs Hb. rewrite G1 in Hs. injection Hs as <-. rewrite Z1. apply Hr. congruence. }
    destruct p as [b|]; [|apply Fin; intros; constructor]. destruct (size =? 0); [apply Fin; intros; constructor|].
    destruct (note_walk_total (0 :: b) (el_enc el1) b size 0 [] B Hsz ltac:(lia) ltac:(rewrite lenN_cons; lia)) as (r & -> & Hr).
    cbn [bind]. apply Fin. intros b' [= <-]. apply Hr. constructor.
  Qed.

  Lemma sec_data_loaded el i s :
    get_sec el i = Some s -> s_loaded s = true ->
    sec_data junk el i = Ok (with_stream (upd_sec el i s) (el_stream el), s_data s, s).
  Proof.
    intros G Ld. unfold sec_data, el_sec_get_data, sec_get_data. rewrite G, Ld. cbn [negb andb bind].
    change (get_sec (with_stream (upd_sec el i s) (el_stream el)) i) with (get_sec (upd_sec el i s) i).
    now rewrite (get_upd_sec el i s (get_sec_lt el i s G)).
  Qed.
  Lemma seg_data_resident el j g :
    get_seg el j = Some g -> g_loaded g = true ->
    el_seg_get_data el j = Ok (with_stream (upd_seg el j g) (el_stream el), g_data g) /\
    get_seg (with_stream (upd_seg el j g) (el_stream el)) j = Some g.
  Proof.
    intros G Ld. unfold el_seg_get_data, seg_get_data. rewrite G, Ld. cbn [bind]. split; [reflexivity|].
    apply nth_optN_updN_same. eapply nth_optN_lt. exact G.
  Qed.

  (* reading a note through an accessor whose positions were recorded over the
     (still resident) data *)
  Theorem note_get_total content k el a index :
    loaded_ok content k el ->
    (match na_target a with
     | NoteSec i => exists s b, get_sec el i = Some s /\ s_loaded s = true /\ s_data s = Some b /\ sh_size s < 2 ^ 30 /\
                                Forall (note_pos_ok (el_enc el) b (sh_size s)) (na_starts a)
     | NoteSeg j => exists g b, get_seg el j = Some g /\ g_loaded g = true /\ g_data g = Some b /\ p_filesz g < 2 ^ 30 /\
                                Forall (note_pos_ok (el_enc el) b (p_filesz g)) (na_starts a)
     end) ->
    exists el1 r, note_get junk el a index = Ok (el1, r).
  Proof.
    intros (Hf & Hg & _) Ht. unfold note_get.
    destruct (N.leb_spec (lenN (na_starts a)) (wrap32 index)) as [Hi|Hi]; [eauto|].
    destruct (nth_optN_some (na_starts a) (wrap32 index) Hi) as (pos & Hpos).
    assert (Hd : exists el1 b size, note_data junk el (na_target a) = Ok (el1, Some b, size) /\ el_enc el1 = el_enc el /\
                   size < lenN b /\ size < 2 ^ 30 /\ Forall (note_pos_ok (el_enc el) b size) (na_starts a)).
    { unfold note_data. destruct (na_target a) as [i|j].
      - destruct Ht as (s & b & G & Ld & D & Z & P). rewrite (sec_data_loaded el i s G Ld). cbn [bind]. rewrite D.
        eexists _, b, _. split; [reflexivity|]. split; [reflexivity|].
        pose proof (Forall_nth_optN _ _ _ _ Hf G) as F. unfold fits in F. rewrite D in F. auto.
      - destruct Ht as (g & b & G & Ld & D & Z & P). destruct (seg_data_resident el j g G Ld) as [-> E2]. cbn [bind]. rewrite E2, D.
        eexists _, b, _. split; [reflexivity|]. split; [reflexivity|].
        pose proof (Forall_nth_optN _ _ _ _ Hg G) as F. unfold gfits in F. rewrite D in F. auto. }
    destruct Hd as (el1 & b & size & -> & He & Hb & Hsz & Hp). cbn [bind]. rewrite Hpos, He. unfold note_at.
    pose proof (Forall_nth_optN _ _ _ _ Hp Hpos) as (namesz & descsz & R1 & R2 & Hfit & Hn & Hdz).
    destruct (rd_word_total (el_enc el) b (pos + 8) 4 4 eq_refl) as (ty & ->); [lia|]. cbn [bind].
    rewrite R1, R2. cbn [bind].
    pose proof (pad4_32_bounds namesz ltac:(lia)) as P1. pose proof (pad4_32_bounds descsz ltac:(lia)) as P2.
    destruct ((namesz <? 1) || _ || _) eqn:Eg; [cbn [bind]; eauto|].
    apply orb_false_iff in Eg. destruct Eg as [Eg _]. apply orb_false_iff in Eg. destruct Eg as [Eg _].
    apply N.ltb_ge in Eg.
    destruct (rd_total b (pos + 12) (namesz - 1)) as (nm & -> & _); [lia|]. cbn [bind].
    destruct (descsz =? 0); [cbn [bind]; eauto|].
    destruct (rd_total b (pos + 12 + pad4_32 namesz) descsz) as (ds & -> & _); [lia|]. cbn [bind]. eauto.
  Qed.

  (* the chain walk ends on a record inside the section; the auxiliary offset is checked before it is used; every
     read after the two checks is inside the section.  16 / 12 / size - 16: sizeof(Verneed), offset of vn_next,
     sizeof(Vernaux); 20 / 16 / size - 8: sizeof(Verdef), offset of vd_next, sizeof(Verdaux) *)
  Lemma verneed_core_total enc (b : bytes) size no :
    size < lenN b -> 16 <= size -> exists r, verneed_core enc (Some b) (0 :: b) size no = Ok r.
  Proof.
    intros B H16. unfold verneed_core.
    destruct (ver_chain_total (0 :: b) enc b size 16 12 0 no B ltac:(lia) H16 ltac:(lia)
                ltac:(rewrite lenN_cons; lia)) as (o & -> & Ho).
    cbn [bind]. destruct o as [off|]; [|eauto]. specialize (Ho off eq_refl).
    rewrite (rd_word_some enc b (off + 8) 4 4 eq_refl) by lia. cbn [bind].
    destruct (N.ltb_spec (size - 16) (off + dec_uint enc (sliceN b (off + 8) 4))) as [Ha|Ha]; [eauto|].
    repeat (rewrite (rd_word_some enc b _ _ _ eq_refl) by lia; cbn [bind]). eauto.
  Qed.
  Lemma verdef_core_total enc (b : bytes) size no :
    size < lenN b -> 20 <= size -> exists r, verdef_core enc (Some b) (0 :: b) size no = Ok r.
  Proof.
    intros B H20. unfold verdef_core.
    destruct (ver_chain_total (0 :: b) enc b size 20 16 0 no B ltac:(lia) H20 ltac:(lia)
                ltac:(rewrite lenN_cons; lia)) as (o & -> & Ho).
    cbn [bind]. destruct o as [off|]; [|eauto]. specialize (Ho off eq_refl).
    rewrite (rd_word_some enc b (off + 12) 4 4 eq_refl) by lia. cbn [bind].
    destruct (N.ltb_spec (size - 8) (off + dec_uint enc (sliceN b (off + 12) 4))) as [Ha|Ha]; [eauto|].
    repeat (rewrite (rd_word_some enc b _ _ _ eq_refl) by lia; cbn [bind]). eauto.
  Qed.

  Theorem verneed_get_total content k el sec num no :
    loaded_ok content k el ->
    exists el1 r, verneed_get junk el sec num no = Ok (el1, r).
  Proof.
    intros H. unfold verneed_get. destruct (get_sec el sec) as [s0|] eqn:Hg; [|eauto].
    destruct (num <=? wrap32 no); [eauto|]. use_sec_data H el sec.
    destruct (s_data s1) as [b|] eqn:Ed; [|eauto]. cbn in B.
    destruct (N.ltb_spec (sh_size s1) 16) as [H16|H16]; [eauto|].
    destruct (verneed_core_total (el_enc el1) b (sh_size s1) (wrap32 no) B H16) as (r & ->). cbn [bind].
    destruct r as [y|]; [|eauto].
    destruct (lookup_str_total content k el1 (wrap32 (sh_link s1)) (vr_file y) (kept_ok K)) as (el2 & fs & -> & L2 & _). cbn [bind].
    destruct (lookup_str_total content k el2 (wrap32 (sh_link s1)) (vr_name y) L2) as (el3 & ds & -> & _). cbn [bind].
    eauto.
  Qed.

  Theorem verdef_get_total content k el sec num no :
    loaded_ok content k el ->
    exists el1 r, verdef_get junk el sec num no = Ok (el1, r).
  Proof.
    intros H. unfold verdef_get. destruct (get_sec el sec) as [s0|] eqn:Hg; [|eauto].
    destruct (num <=? wrap32 no); [eauto|]. use_sec_data H el sec.
    destruct (s_data s1) as [b|] eqn:Ed; [|eauto]. cbn in B.
    destruct (N.ltb_spec (sh_size s1) 20) as [H20|H20]; [eauto|].
    destruct (verdef_core_total (el_enc el1) b (sh_size s1) (wrap32 no) B H20) as (r & ->). cbn [bind].
    destruct r as [y|]; [|eauto].
    destruct (lookup_str_total content k el1 (wrap32 (sh_link s1)) (dr_name y) (kept_ok K)) as (el2 & ds & -> & _). cbn [bind].
    eauto.
  Qed.
End ElLevel.
