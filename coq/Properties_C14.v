(* Properties_C14.v — C14: array and symbol-version tables round-trip in the declared byte order. *)
From ElfioV Require Import Bytes Mem Stream SectionData SectionData_proofs Strings Elfio Table Accessors Tables_proofs Modinfo_table Versions_proofs.
Local Open Scope N_scope.

Theorem C14_array_roundtrip :
  forall e w s (es : list N) j a,
    Inv s -> 0 < w -> contents s = concat (map (arr_enc e w) es) ->
    sh_size s < 2 ^ 61 -> nth_optN es j = Some a ->
    arr_get_core e s (s_data s) w j = Ok (Some (wrap (8 * w) a)).
Proof. exact arr_roundtrip. Qed.
Print Assumptions C14_array_roundtrip.

Theorem C14_array_out_of_range_refused :
  forall e w s (es : list N) j p,
    Inv s -> 0 < w -> contents s = concat (map (arr_enc e w) es) -> lenN es <= j ->
    arr_get_core e s p w j = Ok None.
Proof. exact arr_out_of_range. Qed.
Print Assumptions C14_array_out_of_range_refused.

(* version indices: the accessor works in the host's byte order; when the
   file's declared order is the host's the table is the ABI table and every
   index reads back unchanged.  (For files of the other byte order the
   statement is false of the code: known finding versym-byte-order.) *)
Theorem C14_versym_roundtrip_partial :
  forall host s (es : list N) j v p,
    Inv s -> contents s = concat (map (fun x => enc_uint host 2 (wrap16 x)) es) ->
    sh_size s < 2 ^ 32 -> nth_optN es j = Some v -> p = s_data s ->
    rd_word host p (j * 2) 2 = Ok (wrap16 v).
Proof. exact versym_roundtrip_hostorder. Qed.
Print Assumptions C14_versym_roundtrip_partial.

(* the full statement fails on the model of the unrepaired accessor: a version
   index added to an MSB file on an LSB host is stored in LSB order *)
Theorem C14_versym_refuted_other_byte_order :
  exists v, enc_uint LSB 2 (wrap16 v) <> enc_uint MSB 2 (wrap16 v).
Proof. exists 255. vm_compute. discriminate. Qed.
Print Assumptions C14_versym_refuted_other_byte_order.

(* module information: a section holding the records field=value NUL (what
   add_attribute appends) is reported as exactly those attributes, in order —
   whatever run of NUL bytes precedes the records and whatever follows the section *)
Theorem C14_modinfo_attributes_reported :
  forall (attrs : list attr) (pre zs post : bytes) fuel acc,
    Forall attr_ok attrs -> Forall (fun x => x = 0) zs ->
    let recs := concat (map attr_rec attrs) in
    let size := lenN pre + lenN zs + lenN recs in
    2 * lenN attrs + 2 <= lenN fuel ->
    mod_parse fuel (Some (pre ++ zs ++ recs ++ post)) size (lenN pre) acc = Ok (acc ++ attrs).
Proof.
  intros attrs pre zs post fuel acc Ha Hz recs size. apply mod_parse_spec with zs post; try assumption; [|reflexivity].
  apply skipnN_app_exact. reflexivity.
Qed.
Print Assumptions C14_modinfo_attributes_reported.

(* ... and by field name: the value of the first attribute with that field *)
Theorem C14_modinfo_by_field_name :
  forall (l : list attr) field v,
    mod_find l field = Some v <->
    exists pre post, l = pre ++ (field, v) :: post /\ Forall (fun a => fst a <> field) pre.
Proof. exact mod_find_first. Qed.
Print Assumptions C14_modinfo_by_field_name.

(* version requirements: a section that begins with the encoding of a list of Verneed records (each followed by
   its Vernaux entries, chained by vn_next / vna_next as linkers emit them), in the file's byte order, is
   reported record by record as encoded: version and file-name index of the record, hash / flags / other /
   name index of its first auxiliary entry (the one the accessor reports).  [verneed_get] is this function
   followed by the two string look-ups in the linked string table. *)
Theorem C14_verneed_entries_reported :
  forall e (l : list vneed) (post extra : bytes) no r fuel,
    Forall vneed_wf l -> nth_optN l no = Some r -> no < lenN fuel ->
    verneed_core e (Some ((enc_vneeds e l ++ post) ++ extra)) fuel (lenN (enc_vneeds e l ++ post)) no
    = Ok (Some (vneed_raw r)).
Proof.
  intros e l post extra no r fuel Hwf Hn Hfu.
  apply (verneed_table_entry e l _ (post ++ extra) _ no r fuel Hwf Hn Hfu); [now rewrite app_assoc|rewrite lenN_app; lia].
Qed.
Print Assumptions C14_verneed_entries_reported.

(* version definitions likewise: flags, version index, hash and the name index of the first Verdaux entry *)
Theorem C14_verdef_entries_reported :
  forall e (l : list vdef) (post extra : bytes) no r fuel,
    Forall vdef_wf l -> nth_optN l no = Some r -> no < lenN fuel ->
    verdef_core e (Some ((enc_vdefs e l ++ post) ++ extra)) fuel (lenN (enc_vdefs e l ++ post)) no
    = Ok (Some (vdef_raw r)).
Proof.
  intros e l post extra no r fuel Hwf Hn Hfu.
  apply (verdef_table_entry e l _ (post ++ extra) _ no r fuel Hwf Hn Hfu); [now rewrite app_assoc|rewrite lenN_app; lia].
Qed.
Print Assumptions C14_verdef_entries_reported.

(* the hypotheses are satisfiable, and the encoding is the gABI one: two requirement records (the first with two
   auxiliary entries) in big-endian order, read back through the accessor's function *)
Example C14_verneed_example :
  let l := [mkVneed 1 17 (mkVaux 110530967 0 3 27) [mkVaux 157882997 0 2 38]; mkVneed 1 49 (mkVaux 221783 2 4 60) []] in
  Forall vneed_wf l /\
  firstnN (enc_vneeds MSB l) 16 = [0; 1; 0; 2; 0; 0; 0; 17; 0; 0; 0; 16; 0; 0; 0; 48] /\
  verneed_core MSB (Some (enc_vneeds MSB l ++ [0])) (0 :: enc_vneeds MSB l) (lenN (enc_vneeds MSB l)) 1
  = Ok (Some (mkVNraw 1 49 221783 2 4 60)).
Proof. split; [repeat constructor|]. vm_compute. split; reflexivity. Qed.

Example C14_example : arr_enc MSB 4 305419896 = [18; 52; 86; 120].
Proof. reflexivity. Qed.
