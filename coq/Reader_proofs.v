(* Reader_proofs.v — C02: what load() reports is what the bytes say. *)
From ElfioV Require Import Bytes Mem Stream Stream_proofs SectionData Strings Elfio Table Loader Load_proofs Codec_proofs.
From Coq Require Import ZifyBool ZifyN ZifyNat.
Local Open Scope N_scope.

(* the identification check and header decode of load(), as a function of the bytes *)
Definition parse_header (content : bytes) : option ehdr :=
  let ident := firstnN content 16 in
  if negb (lenN ident =? 16) then None
  else if negb ((nthN ident 0 0 =? 127) && (nthN ident 1 0 =? 69) && (nthN ident 2 0 =? 76) && (nthN ident 3 0 =? 70)) then None
  else
    let cb := nthN ident 4 0 in let db := nthN ident 5 0 in
    if negb ((cb =? 2) || (cb =? 1)) then None
    else if negb ((db =? 1) || (db =? 2)) then None
    else
      let c := if cb =? 2 then C64 else C32 in
      let e := if db =? 1 then LSB else MSB in
      if lenN content <? ehdr_size c then None
      else Some (ehdr_of_bytes c e (firstnN content (ehdr_size c))).

(* with both reads delivering the first bytes of the file, load() decodes what parse_header does: a file shorter than
   16 bytes is refused whatever the second read delivers *)
Lemma decode_plain content got :
  let ident := firstnN content 16 in
  (16 <= lenN content -> got = firstnN content (ehdr_size (if nthN ident 4 0 =? 2 then C64 else C32))) ->
  decode_header ident got = parse_header content.
Proof.
  intros ident Hgot. unfold decode_header, parse_header. fold ident.
  destruct (N.eqb_spec (lenN ident) 16) as [E16|]; cbn [negb]; [|reflexivity].
  destruct (negb (_ && _ && _ && _)); [reflexivity|].
  destruct (negb ((nthN ident 4 0 =? 2) || _)); [reflexivity|].
  destruct (negb ((nthN ident 5 0 =? 1) || _)); [reflexivity|]. cbv zeta.
  set (c := if nthN ident 4 0 =? 2 then C64 else C32) in *. set (e := if nthN ident 5 0 =? 1 then LSB else MSB).
  unfold ident in E16. rewrite lenN_firstnN in E16. rewrite Hgot, lenN_firstnN by lia.
  destruct (N.ltb_spec (lenN content) (ehdr_size c)); [destruct (N.eqb_spec (N.min (ehdr_size c) (lenN content)) (ehdr_size c)); [lia|reflexivity]|].
  replace (N.min (ehdr_size c) (lenN content)) with (ehdr_size c) by lia. rewrite N.eqb_refl. cbn [negb].
  rewrite fill_struct_full; [reflexivity|].
  rewrite lenN_firstnN, lenN_ehdr_bytes by (destruct c, e; reflexivity). cbn [e_cls new_header]. lia.
Qed.

Theorem parse_header_of_encoding h rest :
  ehdr_wf h ->
  nthN (e_ident h) 0 0 = 127 -> nthN (e_ident h) 1 0 = 69 -> nthN (e_ident h) 2 0 = 76 -> nthN (e_ident h) 3 0 = 70 ->
  nthN (e_ident h) 4 0 = cls_byte (e_cls h) -> nthN (e_ident h) 5 0 = enc_byte (e_enc h) ->
  parse_header (ehdr_bytes h ++ rest) = Some h.
Proof.
  intros Hwf M0 M1 M2 M3 M4 M5. pose proof Hwf as (Hi & _).
  assert (L : lenN (ehdr_bytes h) = ehdr_size (e_cls h)) by now apply lenN_ehdr_bytes.
  assert (F16 : firstnN (ehdr_bytes h ++ rest) 16 = e_ident h).
  { unfold ehdr_bytes. rewrite <- app_assoc. now apply firstnN_app_exact. }
  unfold parse_header. rewrite F16, Hi, M0, M1, M2, M3, M4, M5. cbn [N.eqb Pos.eqb negb andb].
  assert (C : (if cls_byte (e_cls h) =? 2 then C64 else C32) = e_cls h) by (destruct (e_cls h); reflexivity).
  assert (E : (if enc_byte (e_enc h) =? 1 then LSB else MSB) = e_enc h) by (destruct (e_enc h); reflexivity).
  assert (B1 : negb ((cls_byte (e_cls h) =? 2) || (cls_byte (e_cls h) =? 1)) = false) by (destruct (e_cls h); reflexivity).
  assert (B2 : negb ((enc_byte (e_enc h) =? 1) || (enc_byte (e_enc h) =? 2)) = false) by (destruct (e_enc h); reflexivity).
  rewrite B1, B2, C, E. rewrite lenN_app, L.
  destruct (N.ltb_spec (ehdr_size (e_cls h) + lenN rest) (ehdr_size (e_cls h))); [lia|].
  rewrite firstnN_app_exact by exact L. f_equal. now apply ehdr_roundtrip.
Qed.

(* the header fields a section reports are those of [s] *)
Definition same_hdr (s r : section) : Prop :=
  sh_name r = sh_name s /\ sh_type r = sh_type s /\ sh_flags r = sh_flags s /\ sh_addr r = sh_addr s /\
  sh_offset r = sh_offset s /\ sh_size r = sh_size s /\ sh_link r = sh_link s /\ sh_info r = sh_info s /\
  sh_addralign r = sh_addralign s /\ sh_entsize r = sh_entsize s.

Lemma same_hdr_kept s r r1 : same_hdr s r -> hdr_same r r1 -> same_hdr s r1.
Proof. unfold same_hdr, hdr_same. intros H1 H2. decompose [and] H1. decompose [and] H2. repeat split; congruence. Qed.
(* sec->set_address( sec->get_address() ) in the section loop: the address read from the table is within its width *)
Lemma same_hdr_with_addr s r : same_hdr s r -> s_cls r = s_cls s -> shdr_wf s -> same_hdr s (with_addr r (sh_addr r)).
Proof.
  intros H Hc (_ & _ & _ & Hwa & _). pose proof H as (_ & _ & _ & A4 & _). unfold same_hdr. cbn.
  rewrite wrap_small; [exact H|]. rewrite A4, Hc. unfold fw in Hwa. destruct (s_cls s); exact Hwa.
Qed.

Lemma table_pos_plain shoff i es : shoff < 2 ^ 63 -> table_pos shoff i es = Z.of_N (shoff + i * es).
Proof. intros H. unfold table_pos. rewrite (to_signed64_small shoff H). lia. Qed.

Section WithEnv.
  Variable junk : N -> N.

  Lemma load_plain el k content lazy :
    xlat_empty (el_xlat el) = true ->
    match parse_header content with
    | None => exists r st, load junk el k content lazy = Ok (with_stream r (Some st), false, [])
    | Some h => exists st4, load junk el k content lazy = load_body junk (with_segs (with_secs el []) []) st4 h lazy /\
                            over content k st4
    end.
  Proof.
    intros Hx. pose proof (load_cases junk el k content lazy) as H. cbv zeta in H.
    destruct (el_xlat el) as [|x xs]; [|discriminate]. cbn [xlat_apply] in H.
    destruct (seek_read_at (open_istream k content) 0 16 eq_refl eq_refl) as (R1 & R2 & _).
    change (Z.of_N 0) with 0%Z in R1, R2. cbn [is_content open_istream] in R1, R2. rewrite sliceN_0 in R1. rewrite R1 in H.
    set (st2 := fst (read (seekg (open_istream k content) 0) 16)) in *.
    assert (O2 : over content k st2).
    { apply (over_same content k (open_istream k content)); [repeat split|apply seek_read_content]. }
    rewrite decode_plain in H.
    - destruct (parse_header content); [destruct H; eauto|]. destruct H as (r & st & E & _). eauto.
    - intros H16. destruct O2 as (C2 & I2 & _).
      destruct (seek_read_at st2 0 (ehdr_size (if nthN (firstnN content 16) 4 0 =? 2 then C64 else C32)) (R2 H16) I2) as (S1 & _).
      change (Z.of_N 0) with 0%Z in S1. now rewrite S1, C2, sliceN_0.
  Qed.

  (* the header the loaded object reports is the decode of the first bytes of
     the file; it is not changed by the section and segment passes *)
  Theorem load_reports_header el k content lazy h :
    xlat_empty (el_xlat el) = true -> parse_header content = Some h ->
    exists el' ok al, load junk el k content lazy = Ok (el', ok, al) /\ el_hdr el' = Some h.
  Proof.
    intros Hx Hp. pose proof (load_plain el k content lazy Hx) as H. rewrite Hp in H. destruct H as (st4 & -> & O4).
    destruct (load_body_total junk content k (with_segs (with_secs el []) []) st4 h lazy O4 eq_refl eq_refl)
      as (el' & ok & al & E & _ & Hh & _). eauto.
  Qed.

  (* a section header table entry that lies inside a good stream: what section::load makes of it before any data is
     asked for *)
  Lemma section_load_entry st enc c idx (pos : N) lazy s' :
    is_fail st = false -> st_inv st -> pos + shdr_size c <= lenN (is_content st) ->
    s_cls s' = c -> shdr_wf s' -> sliceN (is_content st) pos (shdr_size c) = shdr_bytes enc s' ->
    exists st3 r,
      section_load junk st [] enc (with_index (new_section c) idx) (Z.of_N pos) lazy =
        (if lazy then Ok (st3, r, [])
         else '(sto, s3, al) <- sec_get_data junk (Some st3) [] r ;;
              match sto with Some st4 => Ok (st4, s3, al) | None => Fault NullDeref end) /\
      st_same st st3 /\ is_fail st3 = false /\ same_hdr s' r /\ s_index r = idx /\
      s_data r = None /\ s_stream_size r = lenN (is_content st) /\ s_cls r = c.
  Proof.
    intros Hf Hi Hin Hc Hwf Hsl. rewrite section_load_unfold. set (s0 := with_index (new_section c) idx).
    destruct (open_entry_plain st pos (shdr_size c) Hf Hi) as (st3 & E & SS & F3 & _).
    change (s_cls s0) with c. rewrite E, Hsl. unfold section_load_rest.
    rewrite (lenN_shdr_bytes enc s'), Hc, N.eqb_refl. cbn [negb].
    rewrite fill_struct_full by (rewrite !lenN_shdr_bytes, Hc; apply N.le_refl).
    set (r1 := sec_with_raw enc (with_stream_size s0 (lenN (is_content st))) (shdr_bytes enc s')).
    exists st3, (with_load_flags r1 lazy (s_loaded r1) (s_can_load r1)).
    split; [destruct lazy; reflexivity|]. split; [exact SS|]. split; [exact (F3 Hin)|].
    split; [exact (shdr_roundtrip enc (with_stream_size s0 (lenN (is_content st))) s' (eq_sym Hc) Hwf)|]. repeat split.
  Qed.

  Lemma section_load_intact st enc c idx (pos : N) lazy s' :
    is_fail st = false -> st_inv st -> pos + shdr_size c <= lenN (is_content st) ->
    s_cls s' = c -> shdr_wf s' -> sliceN (is_content st) pos (shdr_size c) = shdr_bytes enc s' ->
    exists st' r al,
      section_load junk st [] enc (with_index (new_section c) idx) (Z.of_N pos) lazy = Ok (st', r, al) /\
      st_same st st' /\ same_hdr s' r /\ s_index r = idx /\ s_cls r = c.
  Proof.
    intros Hf Hi Hin Hc Hwf Hsl.
    destruct (section_load_entry st enc c idx pos lazy s' Hf Hi Hin Hc Hwf Hsl) as (st3 & r & -> & SS & _ & SH & IX & D & _ & CL).
    destruct lazy; [exists st3, r, []; auto|].
    destruct (sec_get_data_total junk st3 [] r) as (st4 & r3 & al & -> & _ & HS & SS4 & _); [unfold fits; now rewrite D|].
    cbn [bind]. exists st4, r3, al. split; [reflexivity|]. split; [exact (st_same_trans _ _ _ SS SS4)|].
    split; [exact (same_hdr_kept _ _ _ SH HS)|]. split; [rewrite <- IX|rewrite <- CL]; apply HS.
  Qed.

  Theorem section_load_reports st enc c idx (pos : N) lazy s' :
    is_fail st = false -> st_inv st -> pos < 2 ^ 63 -> pos + shdr_size c <= lenN (is_content st) ->
    s_cls s' = c -> shdr_wf s' ->
    sliceN (is_content st) pos (shdr_size c) = shdr_bytes enc s' ->
    exists st' r al,
      section_load junk st [] enc (with_index (new_section c) idx) (Z.of_N pos) lazy = Ok (st', r, al) /\
      sh_name r = sh_name s' /\ sh_type r = sh_type s' /\ sh_flags r = sh_flags s' /\ sh_addr r = sh_addr s' /\
      sh_offset r = sh_offset s' /\ sh_size r = sh_size s' /\ sh_link r = sh_link s' /\ sh_info r = sh_info s' /\
      sh_addralign r = sh_addralign s' /\ sh_entsize r = sh_entsize s' /\ s_index r = idx.
  Proof.
    intros Hf Hi _ Hin Hc Hwf Hsl.
    destruct (section_load_intact st enc c idx pos lazy s' Hf Hi Hin Hc Hwf Hsl) as (st' & r & al & E & _ & SH & IX & _).
    exists st', r, al. split; [exact E|]. unfold same_hdr in SH. tauto.
  Qed.

  (* the whole section header table (lazy load, no address translation): every entry is reported, in order *)
  Theorem load_sections_loop_reports enc c shoff es : forall (secs : list section) fuel st i racc allocs,
    is_fail st = false -> st_inv st -> shoff < 2 ^ 62 -> shdr_size c <= es ->
    shoff + (i + lenN secs) * es < 2 ^ 62 -> shoff + (i + lenN secs) * es <= lenN (is_content st) ->
    Forall (fun s => s_cls s = c /\ shdr_wf s) secs ->
    (forall k s, nth_optN secs k = Some s -> sliceN (is_content st) (shoff + (i + k) * es) (shdr_size c) = shdr_bytes enc s) ->
    (length secs <= fuel)%nat ->
    exists st' loaded,
      load_sections_loop junk fuel st [] c enc shoff es i (i + lenN secs) true racc allocs = Ok (st', rev loaded ++ racc, allocs) /\
      is_fail st' = false /\ st_inv st' /\ is_content st' = is_content st /\
      Forall2 same_hdr secs loaded /\
      Forall (fun r => s_data r = None /\ s_stream_size r = lenN (is_content st) /\ s_cls r = c) loaded /\
      (forall k r, nth_optN loaded k = Some r -> s_index r = wrap16 (i + k)).
  Proof.
    induction secs as [|s t IH]; intros fuel st i racc allocs Hf Hi H62 Hes Hb1 Hb2 Hwf Hsl Hfuel.
    - cbn [lenN] in *. rewrite N.add_0_r. exists st, []. cbn [rev app].
      destruct fuel; cbn [load_sections_loop]; [|rewrite N.ltb_irrefl]; repeat split; auto; intros k r Hk; discriminate.
    - rewrite lenN_cons in *. destruct fuel as [|f]; [cbn in Hfuel; lia|]. cbn [length] in Hfuel.
      inversion Hwf as [|? ? [Hc Hw] Hwt]; subst.
      cbn [load_sections_loop]. destruct (N.ltb_spec i (i + (1 + lenN t))); [|lia].
      rewrite table_pos_plain by lia.
      destruct (section_load_entry st enc (s_cls s) (wrap16 i) (shoff + i * es) true s Hf Hi) as
        (st1 & r & -> & SS & F1 & SH & IX & D1 & SS1 & CL1);
        [nia|reflexivity|exact Hw|specialize (Hsl 0 s eq_refl); now rewrite N.add_0_r in Hsl|].
      cbn [bind app]. set (r' := with_addr r (sh_addr r)).
      replace (i + (1 + lenN t)) with ((i + 1) + lenN t) by lia.
      destruct (IH f st1 (i + 1) (r' :: racc) allocs F1 (st_same_inv _ _ SS Hi) H62 Hes)
        as (st' & loaded & -> & F' & I' & C' & H2 & H3 & H4); rewrite ?(proj1 SS); [lia|lia|exact Hwt| |lia|].
      + intros k s' Hk. replace (i + 1 + k) with (i + (k + 1)) by lia. apply Hsl. now rewrite nth_optN_succ.
      + exists st', (r' :: loaded). cbn [rev]. rewrite <- app_assoc. cbn [app].
        split; [reflexivity|]. split; [exact F'|]. split; [exact I'|]. split; [rewrite C'; apply SS|]. split; [|split].
        * constructor; [|exact H2]. apply same_hdr_with_addr; [exact SH|exact CL1|exact Hw].
        * constructor; [|rewrite <- (proj1 SS); exact H3]. auto.
        * intros k r0 Hk. cbn [nth_optN] in Hk. destruct (N.eqb_spec k 0) as [->|Hk0].
          -- injection Hk as <-. rewrite N.add_0_r. exact IX.
          -- rewrite (H4 _ _ Hk). f_equal. lia.
  Qed.
End WithEnv.

(* which sections a segment reports as members *)
Definition member_spec (g : segment) (s : section) : bool :=
  let inside :=
    if N.land (sh_flags s) SHF_ALLOC =? SHF_ALLOC
    then is_sect_in_seg (sh_addr s) (sh_size s) (p_vaddr g) (wrap64 (p_vaddr g + p_memsz g))
    else is_sect_in_seg (sh_offset s) (sh_size s) (p_offset g) (wrap64 (p_offset g + p_filesz g)) in
  let tls := N.land (sh_flags s) SHF_TLS =? SHF_TLS in
  inside && negb (((p_type g =? PT_TLS) && negb tls) || (tls && negb (p_type g =? PT_TLS))).

Lemma seg_members_acc g secs : forall acc,
  fold_left (fun acc s => if member_spec g s then acc ++ [s_index s] else acc) secs acc =
  acc ++ map s_index (filter (member_spec g) secs).
Proof.
  induction secs as [|s t IH]; intro acc; cbn [fold_left filter map]; [now rewrite app_nil_r|].
  rewrite IH. destruct (member_spec g s); cbn [map]; [rewrite <- app_assoc|]; reflexivity.
Qed.

Theorem seg_members_exact g secs : seg_members g secs = map s_index (filter (member_spec g) secs).
Proof. exact (seg_members_acc g secs []). Qed.
