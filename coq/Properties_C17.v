(* Properties_C17.v — C17: a truncated file never yields wrong data. *)
From ElfioV Require Import Bytes Mem Stream SectionData Strings Elfio Table Loader Load_proofs Data_proofs Codec_proofs Reader_proofs Prefix_proofs Reload_oneseg Segtable_proofs.
Local Open Scope N_scope.

(* loading any prefix (any bytes at all) returns without a fault *)
Theorem C17_prefix_load_is_safe :
  forall junk el kind (full : bytes) k lazy,
    exists el' ok allocs, load junk el kind (firstnN full k) lazy = Ok (el', ok, allocs) /\
                          loaded_ok (firstnN full k) kind el'.
Proof.
  intros. destruct (load_total junk el kind (firstnN full k) lazy) as (el' & ok & al & H1 & H2 & _). eauto.
Qed.
Print Assumptions C17_prefix_load_is_safe.

(* no section ever exposes bytes that are not in the file: data that appears
   is the file's bytes at the section's range, which lies inside the stream *)
Theorem C17_data_comes_from_the_file :
  forall junk st0 t s,
    fits s ->
    exists st1 s1 ok al,
      sec_load_data junk (Some st0) t s = Ok (Some st1, s1, ok, al) /\
      (s_data s = None -> forall d, s_data s1 = Some d -> 0 < sh_size s ->
         d = sliceN (is_content st0) (sec_file_off t s) (sh_size s) ++ [0] /\
         sec_file_off t s + sh_size s <= s_stream_size s).
Proof.
  intros junk st0 t s Hf.
  destruct (sec_load_data_total junk st0 t s Hf) as (st1 & s1 & ok & al & E & _ & H). eauto 10.
Qed.
Print Assumptions C17_data_comes_from_the_file.

Theorem C17_segment_data_comes_from_the_file :
  forall (junk : N -> N) st0 t g,
    exists st1 g1 ok al,
      seg_load_data (Some st0) t g = Ok (Some st1, g1, ok, al) /\
      (forall d, al <> [] -> g_data g1 = Some d ->
         d = sliceN (is_content st0) (seg_file_off t g) (p_filesz g) ++ [0] /\
         seg_file_off t g + p_filesz g <= g_stream_size g).
Proof.
  intros _ st0 t g.
  destruct (seg_load_data_total st0 t g) as (st1 & g1 & ok & al & E & _ & _ & _ & _ & _ & H). eauto 10.
Qed.
Print Assumptions C17_segment_data_comes_from_the_file.

(* whatever data the prefix yields for a section, the complete file yields the same *)
Theorem C17_prefix_data_agrees :
  forall junk kind (full : bytes) (k : N) t s,
    k <= lenN full -> lenN full < 2 ^ 63 ->
    let pre := firstnN full k in
    forall sp sf, hdr_same s sp -> hdr_same s sf -> s_data sp = None -> s_data sf = None ->
      s_stream_size sp = lenN pre -> s_stream_size sf = lenN full ->
      sh_type s <> SHT_NULL -> sh_type s <> SHT_NOBITS -> 0 < sh_size s ->
      forall st1 s1 ok al,
        sec_load_data junk (Some (open_istream kind pre)) t sp = Ok (st1, s1, ok, al) ->
        forall d, s_data s1 = Some d ->
        exists st2 s2, sec_load_data junk (Some (open_istream kind full)) t sf = Ok (Some st2, s2, true, [sh_size sf + 1]) /\
                       s_data s2 = Some d.
Proof. exact prefix_same_data. Qed.
Print Assumptions C17_prefix_data_agrees.

(* the ELF header: whatever prefix of a file with a decodable header (magic, class and byte-order bytes accepted, at
   least the header's length) is loaded, either load() reports failure, or the object reports exactly the header the
   complete file yields - a cut inside the header never yields a successful load with partly read fields *)
Theorem C17_prefix_header_absent_or_identical :
  forall junk el k (f : bytes) n lazy h,
    xlat_empty (el_xlat el) = true -> parse_header f = Some h ->
    (exists el' al, load junk el k (firstnN f n) lazy = Ok (el', false, al)) \/
    (exists el' ok al, load junk el k (firstnN f n) lazy = Ok (el', ok, al) /\ el_hdr el' = Some h).
Proof.
  intros junk el k f n lazy h Hx Hp. destruct (parse_header (firstnN f n)) as [h'|] eqn:E.
  - right. pose proof (parse_header_prefix f n h' E) as E2. rewrite Hp in E2. injection E2 as <-.
    now apply load_reports_header.
  - left. now apply load_fails_without_header.
Qed.
Print Assumptions C17_prefix_header_absent_or_identical.

(* the section header table: an entry read from any prefix of a file is reported either with exactly the fields the
   complete file yields (the entry lies inside the prefix) or as an empty section - every field zero, no data (the
   cut falls before its end): partly read fields are never reported *)
Theorem C17_prefix_section_header_absent_or_identical :
  forall junk k (f : bytes) n enc c idx (pos : N) lazy s',
    pos < 2 ^ 63 -> pos + shdr_size c <= lenN f -> s_cls s' = c -> shdr_wf s' ->
    sliceN f pos (shdr_size c) = shdr_bytes enc s' ->
    exists st' r al,
      section_load junk (open_istream k (firstnN f n)) [] enc (with_index (new_section c) idx) (Z.of_N pos) lazy = Ok (st', r, al) /\
      ((sh_name r = sh_name s' /\ sh_type r = sh_type s' /\ sh_flags r = sh_flags s' /\ sh_addr r = sh_addr s' /\
        sh_offset r = sh_offset s' /\ sh_size r = sh_size s' /\ sh_link r = sh_link s' /\ sh_info r = sh_info s' /\
        sh_addralign r = sh_addralign s' /\ sh_entsize r = sh_entsize s') \/ hdr_all_zero r).
Proof.
  intros junk k f n enc c idx pos lazy s' _ Hin <- Hwf Hsl.
  destruct (section_load_of_prefix junk (open_istream k (firstnN f n)) enc f n idx pos lazy s' eq_refl eq_refl Hwf Hin Hsl)
    as (st' & r & al & E & _ & [[SH _]|Z]); exists st', r, al; auto.
Qed.
Print Assumptions C17_prefix_section_header_absent_or_identical.

(* the program header table: an entry that is not completely inside the stream leaves the stream failed (whatever
   was read of it is not reported as a segment: see the next theorem) ... *)
Theorem C17_cut_program_header_entry_fails_the_stream :
  forall st enc c (pos : N) lazy st1 g1 ok al,
    is_fail st = false -> st_inv st -> pos < 2 ^ 63 -> lenN (is_content st) < pos + phdr_size c ->
    segment_load st [] enc (new_segment c) (Z.of_N pos) lazy = Ok (st1, g1, ok, al) -> is_fail st1 = true.
Proof. exact segment_load_cut_entry_fails. Qed.
Print Assumptions C17_cut_program_header_entry_fails_the_stream.

(* ... and the loop over the table stops at that entry with "not good" - load() returns false - and the list of
   segments is what it was before the entry: no segment with partly read fields is ever reported *)
Theorem C17_cut_program_header_entry_fails_the_load :
  forall f st secs enc c offset entsize i num lazy racc allocs,
    is_fail st = false -> st_inv st -> i < num ->
    table_pos offset i entsize = Z.of_N (Z.to_N (table_pos offset i entsize)) ->
    Z.to_N (table_pos offset i entsize) < 2 ^ 63 ->
    lenN (is_content st) < Z.to_N (table_pos offset i entsize) + phdr_size c ->
    forall r, load_segments_loop (S f) st [] secs enc c offset entsize i num lazy racc allocs = Ok r ->
    snd (fst r) = false /\ snd (fst (fst r)) = racc.
Proof. exact load_segments_cut_entry_fails. Qed.
Print Assumptions C17_cut_program_header_entry_fails_the_load.

(* THE WHOLE SECTION HEADER TABLE of a prefix.  [secs] are encoded entry after entry (entry size es >= the header
   size) at shoff of the complete file f; the stream holds the first n bytes of f - any n - and is in any state, good
   or failed.  The loop of load_sections reports, index by index, either exactly the encoded header fields or an
   empty section (every field zero, no data): nothing in between, for any cut *)
Theorem C17_prefix_section_table_absent_or_identical :
  forall junk enc c shoff es (f : bytes) n (secs : list section) fuel st i racc allocs,
    st_inv st -> is_content st = firstnN f n -> shoff < 2 ^ 62 -> shdr_size c <= es ->
    shoff + (i + lenN secs) * es < 2 ^ 62 ->
    Forall (fun s => s_cls s = c /\ shdr_wf s) secs ->
    (forall k s, nth_optN secs k = Some s -> shoff + (i + k) * es + shdr_size c <= lenN f /\
                                             sliceN f (shoff + (i + k) * es) (shdr_size c) = shdr_bytes enc s) ->
    (length secs <= fuel)%nat ->
    exists st' loaded allocs',
      load_sections_loop junk fuel st [] c enc shoff es i (i + lenN secs) true racc allocs = Ok (st', rev loaded ++ racc, allocs') /\
      st_inv st' /\ is_content st' = firstnN f n /\ Forall2 same_or_empty secs loaded.
Proof. exact load_sections_loop_of_prefix. Qed.
Print Assumptions C17_prefix_section_table_absent_or_identical.

(* THE WHOLE PROGRAM HEADER TABLE of a prefix.  [segs] are encoded entry after entry at phoff of the complete file f;
   the stream holds the first n bytes.  The loop of load_segments reports a list of segments that is an initial part
   of the table, each with exactly the encoded fields and the members the rule selects (never a segment with partly
   read fields); when it reports "good" the list is the whole table; and it reports "good" whenever every entry lies
   inside the prefix *)
Theorem C17_prefix_program_table_initial_part :
  forall enc c phoff es (f : bytes) n secs (segs : list segment) fuel st i racc allocs,
    is_fail st = false -> st_inv st -> is_content st = firstnN f n -> phoff < 2 ^ 62 -> phdr_size c <= es ->
    phoff + (i + lenN segs) * es < 2 ^ 62 ->
    Forall (fun g => g_cls g = c /\ phdr_wf g) segs ->
    (forall k g, nth_optN segs k = Some g -> phoff + (i + k) * es + phdr_size c <= lenN f /\
                                             sliceN f (phoff + (i + k) * es) (phdr_size c) = phdr_bytes enc g) ->
    (length segs <= fuel)%nat ->
    exists st' loaded ok allocs',
      load_segments_loop fuel st [] secs enc c phoff es i (i + lenN segs) true racc allocs = Ok (st', rev loaded ++ racc, ok, allocs') /\
      Forall2 (seg_reported secs) (firstn (length loaded) segs) loaded /\
      (ok = true -> length loaded = length segs) /\
      ((forall k, k < lenN segs -> phoff + (i + k) * es + phdr_size c <= n) -> ok = true).
Proof. exact load_segments_loop_of_prefix. Qed.
Print Assumptions C17_prefix_program_table_initial_part.

(* ... and an input without a decodable header is refused, whatever else it holds *)
Theorem C17_no_header_no_load :
  forall junk el k content lazy,
    xlat_empty (el_xlat el) = true -> parse_header content = None ->
    exists el' al, load junk el k content lazy = Ok (el', false, al).
Proof. exact load_fails_without_header. Qed.
Print Assumptions C17_no_header_no_load.

(* non-vacuity: section bytes 2..5 of a 10-byte file; prefix of 6 bytes yields them, prefix of 5 yields nothing *)
Definition ex_full : bytes := [0; 1; 2; 3; 4; 5; 6; 7; 8; 9].
Definition ex_sec (ss : N) : section :=
  with_stream_size (with_size (with_offset (with_type (new_section C64) SHT_PROGBITS) 2) 4) ss.
Example C17_example :
  (exists st1 s1 al, sec_load_data (fun _ => 0) (Some (open_istream StringBuf (firstnN ex_full 6))) [] (ex_sec 6) = Ok (st1, s1, true, al) /\
                     s_data s1 = Some [2; 3; 4; 5; 0]) /\
  (exists st1 s1 al, sec_load_data (fun _ => 0) (Some (open_istream StringBuf (firstnN ex_full 5))) [] (ex_sec 5) = Ok (st1, s1, false, al) /\
                     s_data s1 = None).
Proof. split; vm_compute; eauto. Qed.
