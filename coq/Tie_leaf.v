(* Tie_leaf.v — tie A, part 2: the leaf functions translated from the clang AST
   of /repo (Gen_leaf.v, regenerated on every run) equal the model's. *)
From Coq Require Import NArith Bool.
From ElfioV Require Import Bytes SectionData Accessors Loader Writer Leaf_ops Gen_leaf.
Local Open Scope N_scope.

Lemma tie_elf_hash_init : gen_elf_hash_init_h = 0.
Proof. reflexivity. Qed.

(* the loop body of elf_hash: the model's step for every state and byte (the
   variable g is overwritten before it is read, so its incoming value is irrelevant) *)
Lemma tie_elf_hash_step : forall h g c, gen_elf_hash_step h g c = elf_hash_step h c.
Proof.
  intros h g c. unfold gen_elf_hash_step, elf_hash_step, uadd, ushl, unot, wrap32.
  rewrite N.shiftl_mul_pow2. change (2 ^ 4) with 16. change (N.ones 32) with 4294967295.
  destruct (N.land (wrap 32 (wrap 32 (h * 16) + c)) 4026531840 =? 0); reflexivity.
Qed.

Theorem tie_elf_hash : forall name, elf_hash name = fold_left (fun h c => gen_elf_hash_step h 0 c) name gen_elf_hash_init_h.
Proof.
  intro name. symmetry. apply fold_left_ext. intros h c. apply tie_elf_hash_step.
Qed.

Lemma tie_gnu_hash_step : forall h c, gen_elf_gnu_hash_step h c = gnu_hash_step h c.
Proof.
  intros h c. unfold gen_elf_gnu_hash_step, gnu_hash_step, uadd, ushl, wrap32.
  rewrite N.shiftl_mul_pow2. reflexivity.
Qed.
Theorem tie_gnu_hash : forall name, elf_gnu_hash name = fold_left gen_elf_gnu_hash_step name gen_elf_gnu_hash_init_h.
Proof.
  intro name. symmetry. apply fold_left_ext. exact tie_gnu_hash_step.
Qed.

Theorem tie_is_sect_in_seg : forall a b c d, gen_is_sect_in_seg a b c d = is_sect_in_seg a b c d.
Proof. reflexivity. Qed.

Theorem tie_is_offset_in_section : forall offset s,
  gen_is_offset_in_section offset (sh_offset s) (sh_size s) = is_offset_in_section offset s.
Proof. reflexivity. Qed.

Theorem tie_get_virtual_addr : forall offset s,
  gen_get_virtual_addr offset (sh_addr s) (sh_offset s) = get_virtual_addr offset s.
Proof. reflexivity. Qed.

(* relocation info unpacking: get_sym_and_type<T>::get_r_sym / get_r_type for the four entry types *)
Theorem tie_r_sym_32 : forall info, gen_get_r_sym_Elf32_Rel info = r_sym C32 info /\ gen_get_r_sym_Elf32_Rela info = r_sym C32 info.
Proof.
  intro info. unfold gen_get_r_sym_Elf32_Rel, gen_get_r_sym_Elf32_Rela, r_sym, wrap32.
  assert (H : N.shiftr (wrap 32 info) 8 < 2 ^ 32) by (rewrite shiftr_div; pose proof (wrap_lt 32 info); lia).
  rewrite (wrap_small 32 _ H). split; reflexivity.
Qed.

Theorem tie_r_type_32 : forall info, gen_get_r_type_Elf32_Rel info = r_type C32 info /\ gen_get_r_type_Elf32_Rela info = r_type C32 info.
Proof.
  intro info. unfold gen_get_r_type_Elf32_Rel, gen_get_r_type_Elf32_Rela, r_type, wrap8.
  assert (E : wrap 8 (wrap 32 info) = wrap 8 info).
  { unfold wrap. change (2 ^ 32) with (2 ^ 8 * 2 ^ 24). rewrite N.mod_mul_r by discriminate.
    rewrite N.mul_comm, N.mod_add by discriminate. apply N.mod_mod. discriminate. }
  rewrite E. assert (H : wrap 8 info < 2 ^ 32) by exact (N.lt_trans _ (2 ^ 8) (2 ^ 32) (wrap_lt 8 info) eq_refl).
  rewrite (wrap_small 32 _ H). split; reflexivity.
Qed.

Theorem tie_r_sym_64 : forall info, gen_get_r_sym_Elf64_Rel info = r_sym C64 info /\ gen_get_r_sym_Elf64_Rela info = r_sym C64 info.
Proof. intro info. split; reflexivity. Qed.

Theorem tie_r_type_64 : forall info, gen_get_r_type_Elf64_Rel info = r_type C64 info /\ gen_get_r_type_Elf64_Rela info = r_type C64 info.
Proof.
  intro info. unfold gen_get_r_type_Elf64_Rel, gen_get_r_type_Elf64_Rela, r_type, wrap32.
  change 4294967295 with (N.ones 32). rewrite land_ones_mod. fold (wrap 32 info).
  unfold wrap. rewrite N.mod_mod by discriminate. split; reflexivity.
Qed.
