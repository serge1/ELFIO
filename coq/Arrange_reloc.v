(* Arrange_reloc.v — C10/C11 together: arrange_local_symbols followed by the swaps it logs, applied to a
   relocation table (what the callback argument of arrange_local_symbols is for), leaves every relocation
   entry pointing at the symbol it pointed at before. *)
From ElfioV Require Import Bytes Mem SectionData SectionData_proofs Elfio Table Accessors Symbols_proofs Arrange_proofs Reloc_proofs Reloc_swap.
From Coq Require Import Permutation.
Local Open Scope N_scope.

Definition syms_fit (c : cls) (n : N) : Prop := match c with C32 => n <= 2 ^ 24 | C64 => n <= 2 ^ 32 end.

Lemma swaps_in_fit c n log : syms_fit c n -> swaps_in n log ->
  Forall (fun p => sym_fits c (fst p) /\ sym_fits c (snd p)) log.
Proof.
  intros Hn H. unfold swaps_in in H. eapply Forall_impl; [|exact H].
  intros p (P1 & P2 & P3). destruct c; cbn [syms_fit sym_fits] in *; lia.
Qed.

Theorem arrange_then_swaps junk el symsec relsec el1 s s1 c e (syms : list sym) tl rs is_rela (es : list rel_entry) :
  sec_data junk el symsec = Ok (el1, Some (tbl (enc_sym c e) syms tl), s) ->
  acls el1 = c -> sh_entsize s = sym_esz c -> get_symbols_num el1 s = lenN syms ->
  get_sec el1 symsec = Some s1 ->
  1 <= lenN syms -> lenN syms * sym_esz c < 2 ^ 64 -> syms_fit c (lenN syms) ->
  relsec <> symsec -> get_sec el1 relsec = Some rs -> el_enc el1 = e ->
  Inv rs -> s_cls rs = c -> contents rs = concat (map (rel_enc c e is_rela) es) ->
  sh_type rs = (if is_rela then SHT_RELA else SHT_REL) -> sh_entsize rs = rel_esz c is_rela ->
  sh_size rs < size_bound c -> lenN es < 2 ^ 32 -> Forall (rel_fits c) es ->
  exists el2 r log s2 syms' rs',
    arrange_local_symbols junk el symsec = Ok (el2, r, log) /\
    apply_log junk relsec log (Ok el2) = Ok (upd_sec el2 relsec rs') /\
    get_sec el2 symsec = Some s2 /\ s_data s2 = Some (tbl (enc_sym c e) syms' tl) /\ Permutation syms' syms /\
    Inv rs' /\ contents rs' = concat (map (rel_enc c e is_rela) (map (retarget_entry log) es)) /\
    sh_size rs' = sh_size rs /\
    (forall x, nth_optN syms' (re_symbol (retarget_entry log x)) = nth_optN syms (re_symbol x)) /\
    (forall x, re_offset (retarget_entry log x) = re_offset x /\ re_type (retarget_entry log x) = re_type x /\
               re_addend (retarget_entry log x) = re_addend x).
Proof.
  intros Hd Hc He Hn Hg H1 H64 Hfit Hne Hgr Hen HI HK HC HT HE HB Hlen Hf.
  destruct (arrange_local_symbols_arranged junk el symsec el1 s s1 c e syms tl Hd Hc He Hn Hg H1 H64)
    as (s2 & syms' & r & log & EA & G2 & D2 & _ & A).
  destruct (swap_log_spec junk c e is_rela relsec (sh_size rs) log HB (swaps_in_fit c _ log Hfit (arranged_swaps _ A)) _ rs es
              (eq_trans (get_upd_sec_other el1 symsec relsec s2 (not_eq_sym Hne)) Hgr) Hc Hen
              (rel_sec_intro c e is_rela es rs HI HK HC HT HE) Hlen Hf)
    as (rs' & EL & Hrs').
  exists (upd_sec el1 symsec s2), r, log, s2, syms', rs'.
  split; [exact EA|]. split; [exact EL|]. split; [exact G2|]. split; [exact D2|]. split; [exact (arranged_perm _ A)|].
  split; [exact (rel_sec_Inv Hrs')|]. split; [exact (rel_sec_contents Hrs')|]. split; [exact (rs_size Hrs')|].
  split; [intros x; apply (arranged_retarget _ A)|exact (retarget_entry_fields log)].
Qed.
