(* Properties_C16.v — C16: save() reports failure whenever the output did not take the whole file. *)
From ElfioV Require Import Bytes Mem Stream Stream_proofs SectionData Elfio Layout Writer Ostream_proofs
     Layout_proofs Writer_proofs Segment_proofs Oneseg_proofs Oneseg_writer Save_endtoend.
Local Open Scope N_scope.

(* What save() writes is a plan of (position, bytes) pairs executed on the
   stream.  A sink that accepts exactly k bytes ends in the failed state exactly
   when the complete output is longer than k ... *)
Theorem C16_reports_failure :
  forall k p sc su, in_step k sc su -> plan_no_huge su p ->
    k < os_len (exec_plan su p) -> os_bad (exec_plan sc p) = true.
Proof. intros k p sc su HS HP Hk. destruct (exec_plan_tracks k p sc su (in_step_tracks _ _ _ HS) HP) as [_ H]. now destruct (H Hk). Qed.
Print Assumptions C16_reports_failure.

(* ... and when the output fits, the sink never fails and holds exactly what an
   unlimited stream would hold. *)
Theorem C16_success_complete :
  forall k p sc su, in_step k sc su -> plan_no_huge su p ->
    os_len (exec_plan su p) <= k ->
    os_bad (exec_plan sc p) = false /\ os_bytes (exec_plan sc p) = os_bytes (exec_plan su p).
Proof.
  intros k p sc su HS HP Hk. destruct (exec_plan_tracks k p sc su (in_step_tracks _ _ _ HS) HP) as [H _].
  split; [exact (proj1 (in_step_good _ _ _ (H Hk)))|exact (in_step_bytes _ _ _ (H Hk))].
Qed.
Print Assumptions C16_success_complete.

(* save() returns true only if the stream is not in the failed state at the
   end (the repaired save_sections/save_segments return the stream state) *)
Theorem C16_true_means_stream_good :
  forall junk el os el' os', save junk el os = Ok (el', os', true) -> os_bad os' = false.
Proof.
  intros junk el os el' os'. unfold save.
  destruct (os_bad os) eqn:B0; [intros [= _ _ ]; discriminate|].
  destruct (el_hdr el); [|discriminate].
  destruct (force_sections _ _ _ _ _) as [[sta secsa]|]; cbn [bind]; [|discriminate].
  destruct (force_segments _ _ _ _) as [[stb segsb]|]; cbn [bind]; [|discriminate].
  destruct (layout _) as [[el1 ok]|]; cbn [bind]; [|discriminate].
  destruct ok; cbn [negb]; [|discriminate].
  destruct (el_hdr el1) as [h|]; [|discriminate].
  unfold save_header.
  destruct (os_bad (write _ _)) eqn:B1; cbn [negb]; [discriminate|].
  destruct (sections_plan _ _ _ _ _ _ _ _ _) as [[[st1 secs1] plan_s]|]; cbn [bind]; [|discriminate].
  destruct (os_abort (exec_plan _ plan_s)); [discriminate|].
  destruct (os_bad (exec_plan _ plan_s)) eqn:B2; [discriminate|].
  destruct (os_abort (exec_plan _ (segments_plan _ _ _))); [discriminate|].
  intros [= _ <- H]. now apply negb_true_iff in H.
Qed.
Print Assumptions C16_true_means_stream_good.

(* a stream that is already bad (it could not be opened) makes save() return false at once *)
Theorem C16_unopenable : forall junk el os, os_bad os = true -> exists r, save junk el os = Ok (fst r, snd r, false).
Proof. intros junk el os H. exists (el, os). unfold save. now rewrite H. Qed.
Print Assumptions C16_unopenable.

(* THE FUNCTION save() ITSELF on a sink that accepts k bytes, for objects without segments (the class of
   C03_save_without_segments_end_to_end): with [full] the stream an unlimited sink would end up with - when the
   complete file fits, save() returns true and the sink holds exactly that file; when it does not fit, save() never
   returns true, wherever in the sequence of writes the sink gave up *)
Theorem C16_save_reports_failure_end_to_end :
  forall junk el0 h0 bound k,
    el_hdr el0 = Some h0 -> el_segs el0 = [] -> el_xlat el0 = [] -> el_compr el0 = false ->
    Forall writable (el_secs el0) ->
    bound <= 2 ^ 63 -> Forall (fun s => bound <= 2 ^ xw (s_cls s)) (el_secs el0) ->
    e_ehsize h0 + budget (el_secs el0) + 16 < bound ->
    exists el1 h',
      layout el0 = Ok (el1, true) /\ el_hdr el1 = Some h' /\
      (plan_small 0 (noseg_plan h' (el_secs el1)) ->
       let full := exec_plan (new_ostream None) (noseg_plan h' (el_secs el1)) in
       (os_len full <= k ->
          exists os, save junk el0 (new_ostream (Some k)) = Ok (el1, os, true) /\ os_bytes os = os_bytes full) /\
       (k < os_len full ->
          forall el2 os, save junk el0 (new_ostream (Some k)) <> Ok (el2, os, true))).
Proof. intros junk el0 h0 bound k H1 H2 H3 H4 H5 H6 H7 H8. exact (save_noseg_capped junk el0 h0 bound H1 H2 H3 H4 H5 H6 H7 H8 k). Qed.
Print Assumptions C16_save_reports_failure_end_to_end.

(* ... and the same for objects with one segment of automatically addressed members (the class of
   C03_save_with_one_segment_end_to_end): the sink may give up during the ELF header, a section, or the program
   header record that is written last - save() is true exactly when everything fitted *)
Theorem C16_save_reports_failure_end_to_end_one_segment :
  forall junk el h0 g bound ms k,
    let idxs := g_sections g in
    let align := if 0 <? p_align g then p_align g else 1 in
    let secs := el_secs el in
    let pos0 := e_ehsize h0 + e_phentsize h0 in
    el_hdr el = Some h0 -> el_segs el = [g] -> lenN secs < 2 ^ 16 ->
    lenN idxs < 2 ^ 16 -> idxs <> [] -> g_offset_set g = false -> p_type g <> PT_PHDR -> NoDup idxs ->
    Forall2 (fun i s => nth_optN secs i = Some s) idxs ms ->
    Forall auto_member ms -> Forall (fun s => sh_addralign s <= p_align g) ms ->
    bound <= 2 ^ 63 -> Forall (fun s => bound <= 2 ^ xw (s_cls s)) secs -> bound <= 2 ^ xw (g_cls g) ->
    bound <= 2 ^ xw (e_cls h0) -> p_align g < 2 ^ 63 ->
    p_vaddr g + pos0 + align + mbudget ms + budget secs + 16 + e_shentsize h0 * lenN secs < bound ->
    indexed_from 0 secs ->
    (forall s, In s secs -> s_index s = 0 -> csize s = 0) ->
    lenN (e_ident h0) = 16 -> e_ehsize h0 = ehdr_size (e_cls h0) ->
    (forall s, In s secs -> shdr_size (s_cls s) <= e_shentsize h0) ->
    phdr_size (g_cls g) <= e_phentsize h0 -> g_index g = 0 ->
    el_xlat el = [] -> el_compr el = false -> Forall writable secs -> g_loaded g = true ->
    exists el' h' g',
      layout el = Ok (el', true) /\ el_hdr el' = Some h' /\ el_segs el' = [g'] /\
      let plan := oneseg_plan h' (el_secs el') (segments_plan (e_enc h') h' [g']) in
      (plan_small 0 plan ->
       let full := exec_plan (new_ostream None) plan in
       (os_len full <= k ->
          exists os, save junk el (new_ostream (Some k)) = Ok (el', os, true) /\ os_bytes os = os_bytes full) /\
       (k < os_len full ->
          forall el2 os, save junk el (new_ostream (Some k)) <> Ok (el2, os, true))).
Proof.
  intros junk el h0 g bound ms k. cbv zeta. intros.
  assert (O : oneseg el h0 g bound ms) by (constructor; try assumption; lia).
  assert (F : oneseg_file el h0 g bound ms) by (constructor; try assumption; constructor; assumption).
  apply (save_oneseg_capped junk el h0 g bound ms O F); assumption.
Qed.
Print Assumptions C16_save_reports_failure_end_to_end_one_segment.

(* evaluation (a test, not a theorem): a 144-byte file; a sink of 143 bytes makes save() return false, one of 144 true *)
Definition ex_cap_secs : list section :=
  map (fun s => with_load_flags s false true true)
  [with_index (new_section C32) 0;
   with_index (with_data (with_size (with_addralign (with_type (new_section C32) 1) 4) 5) (Some [1; 2; 3; 4; 5]) 5) 1].
Definition ex_cap_el : elfio := with_secs (with_hdr (empty_elfio false) (Some (new_header C32 LSB))) ex_cap_secs.
Example C16_save_example :
  match save (fun _ => 0) ex_cap_el (new_ostream (Some 143)), save (fun _ => 0) ex_cap_el (new_ostream (Some 144)) with
  | Ok (_, _, ok1), Ok (_, os2, ok2) => ok1 = false /\ ok2 = true /\ lenN (os_bytes os2) = 144
  | _, _ => False
  end.
Proof. vm_compute. repeat split; reflexivity. Qed.

Example C16_example :
  let p := [(0, [1; 2; 3; 4]); (8, [9; 9])] in
  os_bad (exec_plan (new_ostream (Some 9)) p) = true /\ os_bad (exec_plan (new_ostream (Some 10)) p) = false /\
  os_bytes (exec_plan (new_ostream (Some 10)) p) = [1; 2; 3; 4; 0; 0; 0; 0; 9; 9] /\
  in_step 10 (new_ostream (Some 10)) (new_ostream None).
Proof. vm_compute. repeat split; try reflexivity; discriminate. Qed.
