(* Versions_proofs.v — C14: version-requirement (.gnu.version_r) and version-definition (.gnu.version_d)
   sections holding the gABI/LSB encoding of a list of records are reported record by record as encoded.
   The encodings below follow the layouts tied to /repo's elf_types.hpp by Tie_abi (tie_verneed, tie_vernaux,
   tie_verdef, tie_verdaux): the literal offsets the model reads at are the generated ones. *)
From ElfioV Require Import Bytes Mem Table Accessors.
Local Open Scope N_scope.

(* a table of records chained by a next field, as vn_next / vd_next chain them *)
Section Chain.
  Context {R : Type}.
  Variable e : endian.
  Variable enc : bool -> R -> bytes.    (* a record with what hangs off it; the flag marks the last of the table *)
  Variable size : R -> N.
  Variable wf : R -> Prop.
  Variable recsz nxt_off : N.
  Hypothesis enc_len : forall last r, lenN (enc last r) = size r.
  Hypothesis size_ge : forall r, recsz <= size r.
  Hypothesis recsz_pos : 0 < recsz.
  Hypothesis next_read : forall (b post : bytes) off r, wf r -> skipnN b off = enc false r ++ post ->
    rd_word e (Some b) (off + nxt_off) 4 = Ok (size r).

  Fixpoint rec_chain (l : list R) : bytes :=
    match l with
    | [] => []
    | [r] => enc true r
    | r :: t => enc false r ++ rec_chain t
    end.

  Lemma rec_chain_cons r r2 t : rec_chain (r :: r2 :: t) = enc false r ++ rec_chain (r2 :: t).
  Proof. reflexivity. Qed.

  Lemma rec_chain_ge r t : size r <= lenN (rec_chain (r :: t)).
  Proof. destruct t; [cbn [rec_chain]|rewrite rec_chain_cons, lenN_app]; rewrite enc_len; lia. Qed.

  (* walking the next field [no] times from the start of a table reaches record [no], which lies inside [bound] *)
  Lemma ver_chain_finds : forall (l : list R) (b post : bytes) fuel bound off no r,
    Forall wf l -> skipnN b off = rec_chain l ++ post -> nth_optN l no = Some r -> no < lenN fuel ->
    off + lenN (rec_chain l) <= bound ->
    exists off' last rest, ver_chain fuel e (Some b) bound recsz nxt_off off no = Ok (Some off') /\
      skipnN b off' = enc last r ++ rest /\ off' + size r <= bound.
  Proof.
    induction l as [|r0 t IH]; intros b post fuel bound off no r Hwf Hb Hn Hfu Hsz; [discriminate|].
    destruct fuel as [|u f]; [cbn in Hfu; lia|]. rewrite lenN_cons in Hfu.
    pose proof (rec_chain_ge r0 t) as G0.
    cbn [ver_chain nth_optN] in *. destruct (N.eqb_spec no 0) as [->|Hn0].
    - injection Hn as ->. exists off. destruct t as [|r2 t].
      + exists true, post. repeat split; [exact Hb|lia].
      + exists false, (rec_chain (r2 :: t) ++ post). rewrite rec_chain_cons, <- app_assoc in Hb. repeat split; [exact Hb|lia].
    - destruct t as [|r2 t]; [discriminate|]. inversion Hwf as [|? ? Hr Ht]; subst.
      rewrite rec_chain_cons, <- app_assoc in Hb. rewrite rec_chain_cons, lenN_app, enc_len in Hsz.
      rewrite (next_read b _ off r0 Hr Hb). cbn [bind].
      pose proof (size_ge r0). pose proof (size_ge r2). pose proof (rec_chain_ge r2 t).
      destruct (N.eqb_spec (size r0) 0); [lia|]. destruct (N.ltb_spec (bound - recsz) (off + size r0)); [lia|].
      apply skipnN_after in Hb. rewrite enc_len in Hb.
      apply (IH b post f bound _ _ r Ht Hb Hn); lia.
  Qed.
End Chain.

Record vaux := mkVaux { va_hash : N; va_flags : N; va_other : N; va_name : N }.
Record vneed := mkVneed { vq_version : N; vq_file : N; vq_first : vaux; vq_more : list vaux }.

Definition vernaux_layout : list nat := [4; 2; 2; 4; 4]%nat.      (* vna_hash vna_flags vna_other vna_name vna_next *)
Definition verneed_layout : list nat := [2; 2; 4; 4; 4]%nat.      (* vn_version vn_cnt vn_file vn_aux vn_next *)

Definition enc_vaux (e : endian) (last : bool) (a : vaux) : bytes :=
  enc_fields e vernaux_layout [va_hash a; va_flags a; va_other a; va_name a; if last then 0 else 16].
Fixpoint enc_vauxs (e : endian) (a : vaux) (more : list vaux) : bytes :=
  match more with
  | [] => enc_vaux e true a
  | b :: t => enc_vaux e false a ++ enc_vauxs e b t
  end.
Definition vneed_size (r : vneed) : N := 16 + 16 * (1 + lenN (vq_more r)).
Definition enc_vneed (e : endian) (last : bool) (r : vneed) : bytes :=
  enc_fields e verneed_layout [vq_version r; 1 + lenN (vq_more r); vq_file r; 16; if last then 0 else vneed_size r]
  ++ enc_vauxs e (vq_first r) (vq_more r).
Fixpoint enc_vneeds (e : endian) (l : list vneed) : bytes :=
  match l with
  | [] => []
  | [r] => enc_vneed e true r
  | r :: t => enc_vneed e false r ++ enc_vneeds e t
  end.

Definition vaux_wf (a : vaux) : Prop := va_hash a < 2 ^ 32 /\ va_flags a < 2 ^ 16 /\ va_other a < 2 ^ 16 /\ va_name a < 2 ^ 32.
Definition vneed_wf (r : vneed) : Prop :=
  vq_version r < 2 ^ 16 /\ vq_file r < 2 ^ 32 /\ vaux_wf (vq_first r) /\ lenN (vq_more r) < 2 ^ 16 - 1.

Lemma lenN_enc_vaux e l a : lenN (enc_vaux e l a) = 16.
Proof. unfold enc_vaux. now rewrite lenN_enc_fields. Qed.
Lemma lenN_enc_vauxs e : forall more a, lenN (enc_vauxs e a more) = 16 * (1 + lenN more).
Proof.
  induction more as [|b t IH]; intro a; cbn [enc_vauxs]; [rewrite lenN_enc_vaux; cbn [lenN]; lia|].
  rewrite lenN_app, lenN_enc_vaux, IH, lenN_cons. lia.
Qed.
Lemma lenN_enc_vneed e l r : lenN (enc_vneed e l r) = vneed_size r.
Proof. unfold enc_vneed, vneed_size. rewrite lenN_app, lenN_enc_fields by reflexivity. rewrite lenN_enc_vauxs. reflexivity. Qed.

Lemma vneed_size_ge r : 16 <= vneed_size r.
Proof. unfold vneed_size. lia. Qed.

Lemma enc_vneeds_chain e l : enc_vneeds e l = rec_chain (enc_vneed e) l.
Proof. induction l as [|r [|r2 t] IH]; [reflexivity..|]. rewrite rec_chain_cons, <- IH. reflexivity. Qed.

(* the raw fields the accessor reports for a record: those of the record and of its first auxiliary entry *)
Definition vneed_raw (r : vneed) : verneed_raw :=
  mkVNraw (vq_version r) (vq_file r) (va_hash (vq_first r)) (va_flags (vq_first r)) (va_other (vq_first r)) (va_name (vq_first r)).

Lemma enc_vauxs_first e a more : exists rest l, enc_vauxs e a more = enc_vaux e l a ++ rest.
Proof. destruct more as [|b t]; [exists [], true; now rewrite app_nil_r | exists (enc_vauxs e b t), false; reflexivity]. Qed.

Lemma vneed_reads e (b post : bytes) off last r :
  skipnN b off = enc_vneed e last r ++ post -> vneed_wf r ->
  rd_word e (Some b) off 2 = Ok (vq_version r) /\
  rd_word e (Some b) (off + 4) 4 = Ok (vq_file r) /\
  rd_word e (Some b) (off + 8) 4 = Ok 16 /\
  rd_word e (Some b) (off + 12) 4 = Ok (if last then 0 else vneed_size r) /\
  rd_word e (Some b) (off + 16) 4 = Ok (va_hash (vq_first r)) /\
  rd_word e (Some b) (off + 16 + 4) 2 = Ok (va_flags (vq_first r)) /\
  rd_word e (Some b) (off + 16 + 6) 2 = Ok (va_other (vq_first r)) /\
  rd_word e (Some b) (off + 16 + 8) 4 = Ok (va_name (vq_first r)).
Proof.
  intros Hb (Hv & Hf & (Hh & Hfl & Ho & Hn) & Hm).
  assert (Hsz : vneed_size r < 2 ^ 32) by (unfold vneed_size; lia).
  unfold enc_vneed in Hb. rewrite <- app_assoc in Hb.
  pose proof (skipnN_after _ _ _ _ Hb) as Ha. rewrite lenN_enc_fields in Ha by reflexivity.
  change (layout_size verneed_layout) with 16 in Ha.
  destruct (enc_vauxs_first e (vq_first r) (vq_more r)) as (rest & l & Ea).
  rewrite Ea in Ha. unfold enc_vaux in Ha. rewrite <- app_assoc in Ha.
  pose proof (rd_word_field e 0 Hb eq_refl eq_refl Hv) as R0. rewrite N.add_0_r in R0.
  pose proof (rd_word_field e 0 Ha eq_refl eq_refl Hh) as A0. rewrite N.add_0_r in A0.
  repeat split.
  - exact R0.
  - exact (rd_word_field e 2 Hb eq_refl eq_refl Hf).
  - exact (rd_word_field e 3 Hb eq_refl eq_refl eq_refl).
  - refine (rd_word_field e 4 Hb eq_refl eq_refl _). destruct last; [reflexivity|exact Hsz].
  - exact A0.
  - exact (rd_word_field e 1 Ha eq_refl eq_refl Hfl).
  - exact (rd_word_field e 2 Ha eq_refl eq_refl Ho).
  - exact (rd_word_field e 3 Ha eq_refl eq_refl Hn).
Qed.

Lemma vneed_next e (b post : bytes) off r : vneed_wf r -> skipnN b off = enc_vneed e false r ++ post ->
  rd_word e (Some b) (off + 12) 4 = Ok (vneed_size r).
Proof. intros Hr Hb. apply (vneed_reads e b post off false r Hb Hr). Qed.

(* C14: the accessor's fixed-layout part reports record [no] of a version-requirement table as encoded
   (version, file-name index, and hash / flags / other / name index of its first auxiliary entry);
   [b]: the buffer, which begins with the table, [size]: the section size, which covers at least the table *)
Theorem verneed_table_entry e (l : list vneed) (b rest : bytes) size no r fuel :
  Forall vneed_wf l -> nth_optN l no = Some r -> no < lenN fuel ->
  b = enc_vneeds e l ++ rest -> lenN (enc_vneeds e l) <= size ->
  verneed_core e (Some b) fuel size no = Ok (Some (vneed_raw r)).
Proof.
  intros Hwf Hn Hfu Hb Hsz. rewrite enc_vneeds_chain in Hb, Hsz. unfold verneed_core.
  destruct (ver_chain_finds e (enc_vneed e) vneed_size vneed_wf 16 12 (lenN_enc_vneed e) vneed_size_ge eq_refl (vneed_next e)
              l b rest fuel size 0 no r Hwf (eq_trans (skipnN_0 b) Hb) Hn Hfu Hsz) as (off & last & rest' & -> & Hr & Hin).
  cbn [bind].
  destruct (vneed_reads e b rest' off last r Hr (Forall_nth_optN _ _ _ _ Hwf Hn)) as (R1 & R2 & R3 & _ & R5 & R6 & R7 & R8).
  rewrite R3. cbn [bind]. unfold vneed_size in Hin.
  destruct (N.ltb_spec (size - 16) (off + 16)); [lia|].
  rewrite R2, R8, R1, R5, R6, R7. reflexivity.
Qed.

Record vdef := mkVdef { vf_flags : N; vf_ndx : N; vf_hash : N; vf_name : N; vf_more : list N (* names of further verdaux entries *) }.

Definition verdaux_layout : list nat := [4; 4]%nat.               (* vda_name vda_next *)
Definition verdef_layout : list nat := [2; 2; 2; 2; 4; 4; 4]%nat.  (* vd_version vd_flags vd_ndx vd_cnt vd_hash vd_aux vd_next *)

Definition enc_vdaux (e : endian) (last : bool) (name : N) : bytes :=
  enc_fields e verdaux_layout [name; if last then 0 else 8].
Fixpoint enc_vdauxs (e : endian) (a : N) (more : list N) : bytes :=
  match more with
  | [] => enc_vdaux e true a
  | b :: t => enc_vdaux e false a ++ enc_vdauxs e b t
  end.
Definition vdef_size (r : vdef) : N := 20 + 8 * (1 + lenN (vf_more r)).
Definition enc_vdef (e : endian) (last : bool) (r : vdef) : bytes :=
  enc_fields e verdef_layout [1; vf_flags r; vf_ndx r; 1 + lenN (vf_more r); vf_hash r; 20; if last then 0 else vdef_size r]
  ++ enc_vdauxs e (vf_name r) (vf_more r).
Fixpoint enc_vdefs (e : endian) (l : list vdef) : bytes :=
  match l with
  | [] => []
  | [r] => enc_vdef e true r
  | r :: t => enc_vdef e false r ++ enc_vdefs e t
  end.
Definition vdef_wf (r : vdef) : Prop :=
  vf_flags r < 2 ^ 16 /\ vf_ndx r < 2 ^ 16 /\ vf_hash r < 2 ^ 32 /\ vf_name r < 2 ^ 32 /\ lenN (vf_more r) < 2 ^ 16 - 1.

Lemma lenN_enc_vdaux e l a : lenN (enc_vdaux e l a) = 8.
Proof. unfold enc_vdaux. now rewrite lenN_enc_fields. Qed.
Lemma lenN_enc_vdauxs e : forall more a, lenN (enc_vdauxs e a more) = 8 * (1 + lenN more).
Proof.
  induction more as [|b t IH]; intro a; cbn [enc_vdauxs]; [rewrite lenN_enc_vdaux; cbn [lenN]; lia|].
  rewrite lenN_app, lenN_enc_vdaux, IH, lenN_cons. lia.
Qed.
Lemma lenN_enc_vdef e l r : lenN (enc_vdef e l r) = vdef_size r.
Proof. unfold enc_vdef, vdef_size. rewrite lenN_app, lenN_enc_fields by reflexivity. rewrite lenN_enc_vdauxs. reflexivity. Qed.
Lemma vdef_size_ge r : 20 <= vdef_size r.
Proof. unfold vdef_size. lia. Qed.

Lemma enc_vdefs_chain e l : enc_vdefs e l = rec_chain (enc_vdef e) l.
Proof. induction l as [|r [|r2 t] IH]; [reflexivity..|]. rewrite rec_chain_cons, <- IH. reflexivity. Qed.

Definition vdef_raw (r : vdef) : verdef_raw := mkVDraw (vf_flags r) (vf_ndx r) (vf_hash r) (vf_name r).

Lemma enc_vdauxs_first e a more : exists rest l, enc_vdauxs e a more = enc_vdaux e l a ++ rest.
Proof. destruct more as [|b t]; [exists [], true; now rewrite app_nil_r | exists (enc_vdauxs e b t), false; reflexivity]. Qed.

Lemma vdef_reads e (b post : bytes) off last r :
  skipnN b off = enc_vdef e last r ++ post -> vdef_wf r ->
  rd_word e (Some b) (off + 2) 2 = Ok (vf_flags r) /\
  rd_word e (Some b) (off + 4) 2 = Ok (vf_ndx r) /\
  rd_word e (Some b) (off + 8) 4 = Ok (vf_hash r) /\
  rd_word e (Some b) (off + 12) 4 = Ok 20 /\
  rd_word e (Some b) (off + 16) 4 = Ok (if last then 0 else vdef_size r) /\
  rd_word e (Some b) (off + 20) 4 = Ok (vf_name r).
Proof.
  intros Hb (Hfl & Hnd & Hh & Hn & Hm).
  assert (Hsz : vdef_size r < 2 ^ 32) by (unfold vdef_size; lia).
  unfold enc_vdef in Hb. rewrite <- app_assoc in Hb.
  pose proof (skipnN_after _ _ _ _ Hb) as Ha. rewrite lenN_enc_fields in Ha by reflexivity.
  change (layout_size verdef_layout) with 20 in Ha.
  destruct (enc_vdauxs_first e (vf_name r) (vf_more r)) as (rest & l & Ea).
  rewrite Ea in Ha. unfold enc_vdaux in Ha. rewrite <- app_assoc in Ha.
  pose proof (rd_word_field e 0 Ha eq_refl eq_refl Hn) as A0. rewrite N.add_0_r in A0.
  repeat split.
  - exact (rd_word_field e 1 Hb eq_refl eq_refl Hfl).
  - exact (rd_word_field e 2 Hb eq_refl eq_refl Hnd).
  - exact (rd_word_field e 4 Hb eq_refl eq_refl Hh).
  - exact (rd_word_field e 5 Hb eq_refl eq_refl eq_refl).
  - refine (rd_word_field e 6 Hb eq_refl eq_refl _). destruct last; [reflexivity|exact Hsz].
  - exact A0.
Qed.

Lemma vdef_next e (b post : bytes) off r : vdef_wf r -> skipnN b off = enc_vdef e false r ++ post ->
  rd_word e (Some b) (off + 16) 4 = Ok (vdef_size r).
Proof. intros Hr Hb. apply (vdef_reads e b post off false r Hb Hr). Qed.

(* C14: record [no] of a version-definition table is reported as encoded (flags, version index, hash and the
   name index of its first auxiliary entry) *)
Theorem verdef_table_entry e (l : list vdef) (b rest : bytes) size no r fuel :
  Forall vdef_wf l -> nth_optN l no = Some r -> no < lenN fuel ->
  b = enc_vdefs e l ++ rest -> lenN (enc_vdefs e l) <= size ->
  verdef_core e (Some b) fuel size no = Ok (Some (vdef_raw r)).
Proof.
  intros Hwf Hn Hfu Hb Hsz. rewrite enc_vdefs_chain in Hb, Hsz. unfold verdef_core.
  destruct (ver_chain_finds e (enc_vdef e) vdef_size vdef_wf 20 16 (lenN_enc_vdef e) vdef_size_ge eq_refl (vdef_next e)
              l b rest fuel size 0 no r Hwf (eq_trans (skipnN_0 b) Hb) Hn Hfu Hsz) as (off & last & rest' & -> & Hr & Hin).
  cbn [bind].
  destruct (vdef_reads e b rest' off last r Hr (Forall_nth_optN _ _ _ _ Hwf Hn)) as (R1 & R2 & R3 & R4 & _ & R6).
  rewrite R4. cbn [bind]. unfold vdef_size in Hin.
  destruct (N.ltb_spec (size - 8) (off + 20)); [lia|].
  rewrite R6, R1, R2, R3. reflexivity.
Qed.
