(* Load_proofs.v — C01/C17/C15: load() on arbitrary bytes is total (no memory
   fault), every data buffer requested is bounded by the input, and loaded data
   are slices of the input. *)
From ElfioV Require Import Bytes Mem Stream Stream_proofs SectionData Strings Elfio Table Loader.
From Coq Require Import ZifyBool ZifyN ZifyNat.
Local Open Scope N_scope.

Definition st_inv (st : istream) : Prop := is_len st = lenN (is_content st).

Definition st_same (a b : istream) : Prop :=
  is_content b = is_content a /\ is_len b = is_len a /\ is_kind b = is_kind a.
Lemma st_same_refl a : st_same a a.
Proof. repeat split. Qed.
Lemma st_same_trans a b c : st_same a b -> st_same b c -> st_same a c.
Proof. unfold st_same. intros (? & ? & ?) (? & ? & ?). repeat split; congruence. Qed.
Lemma st_same_inv a b : st_same a b -> st_inv a -> st_inv b.
Proof. unfold st_same, st_inv. intros (? & ? & _) ?. congruence. Qed.

Lemma seekg_content st p : st_same st (seekg st p).
Proof.
  unfold st_same, seekg. destruct (is_fail st); [repeat split|]. destruct (p <? 0)%Z; [repeat split|].
  destruct (is_kind st); [destruct (is_len st <? Z.to_N p)|]; repeat split.
Qed.
Lemma seekg_end_content st : st_same st (seekg_end st).
Proof. unfold seekg_end. destruct (is_fail st); repeat split. Qed.
Lemma read_content st n : st_same st (fst (read st n)).
Proof. unfold read. destruct (is_fail st); [repeat split|]. destruct (_ <? n); repeat split. Qed.
Lemma seek_read_content st p n : st_same st (fst (read (seekg st p) n)).
Proof. exact (st_same_trans _ _ _ (seekg_content st p) (read_content _ n)). Qed.

Lemma read_failed st n : is_fail st = true -> read st n = (st, []).
Proof. intros H. unfold read. now rewrite H. Qed.
Lemma seekg_failed st p : is_fail st = true -> seekg st p = st.
Proof. intros H. unfold seekg. now rewrite H. Qed.
Lemma seekg_end_failed st : is_fail st = true -> seekg_end st = st.
Proof. intros H. unfold seekg_end. now rewrite H. Qed.

Lemma seekg_end_ok st : is_fail st = false ->
  seekg_end st = mkIstream (is_kind st) (is_content st) (is_len st) false (is_len st).
Proof. intros H. unfold seekg_end. now rewrite H. Qed.
Lemma read_ok st n : is_fail st = false ->
  let got := sliceN (is_content st) (is_pos st) n in
  read st n = (mkIstream (is_kind st) (is_content st) (is_len st) (lenN got <? n) (is_pos st + lenN got), got).
Proof.
  intros H got. unfold read. rewrite H. fold got. pose proof (lenN_sliceN_le (is_content st) (is_pos st) n) as Hle.
  fold got in Hle. destruct (N.ltb_spec (lenN got) n); [reflexivity|]. do 2 f_equal. lia.
Qed.

Lemma read_got st n : lenN (snd (read st n)) <= n.
Proof.
  unfold read. destruct (is_fail st); [cbn; lia|].
  destruct (_ <? n); cbn [snd]; apply lenN_sliceN_le.
Qed.

Lemma to_signed64_nonneg v : v < 2 ^ 64 -> (0 <= to_signed64 v)%Z -> Z.to_N (to_signed64 v) = v.
Proof. intros H. unfold to_signed64. rewrite N.mod_small by exact H. destruct (N.ltb_spec v (2 ^ 63)); lia. Qed.

Lemma seekg_pos st p : is_fail (seekg st p) = false -> is_fail st = false /\ (0 <= p)%Z /\ is_pos (seekg st p) = Z.to_N p.
Proof.
  unfold seekg. destruct (is_fail st) eqn:F; [congruence|].
  destruct (Z.ltb_spec p 0); [cbn; discriminate|].
  destruct (is_kind st); [destruct (is_len st <? Z.to_N p); cbn; [discriminate|]|cbn]; intros _; repeat split; lia.
Qed.

(* a seek on a good stream: a string buffer refuses a position beyond the end *)
Lemma seekg_at st pos :
  is_fail st = false ->
  seekg st (Z.of_N pos) = mkIstream (is_kind st) (is_content st) (is_len st) false pos \/
  is_len st < pos /\ is_fail (seekg st (Z.of_N pos)) = true.
Proof.
  intros Hf. unfold seekg. rewrite Hf. destruct (Z.ltb_spec (Z.of_N pos) 0); [lia|]. rewrite N2Z.id.
  destruct (is_kind st); [|now left]. destruct (N.ltb_spec (is_len st) pos); [now right|now left].
Qed.

(* after a refused seek nothing is delivered; the slice beyond the end is empty too *)
Lemma seek_read_at st pos n :
  is_fail st = false -> st_inv st ->
  let r := read (seekg st (Z.of_N pos)) n in
  snd r = sliceN (is_content st) pos n /\
  (pos + n <= lenN (is_content st) -> is_fail (fst r) = false) /\
  (lenN (is_content st) < pos + n -> 0 < n -> is_fail (fst r) = true).
Proof.
  intros Hf Hi. unfold st_inv in Hi. cbv zeta. destruct (seekg_at st pos Hf) as [-> | [Hlt Hs]].
  - rewrite read_ok by reflexivity. cbn [fst snd is_fail is_content is_pos]. split; [reflexivity|].
    rewrite lenN_sliceN. split; intros; [apply N.ltb_ge|apply N.ltb_lt]; lia.
  - rewrite (read_failed _ _ Hs). cbn [fst snd]. rewrite Hs. unfold sliceN. rewrite skipnN_all by lia.
    split; [destruct n; reflexivity|]. split; [lia|reflexivity].
Qed.

Lemma read_not_failed st n : is_fail (fst (read st n)) = false -> lenN (snd (read st n)) = n.
Proof.
  destruct (is_fail st) eqn:F; [rewrite (read_failed st n F); cbn; congruence|]. rewrite (read_ok st n F). cbn [fst snd is_fail].
  pose proof (lenN_sliceN_le (is_content st) (is_pos st) n). lia.
Qed.
Lemma seek_read_same st p n st2 got : read (seekg st p) n = (st2, got) -> st_same st st2.
Proof.
  intros E. change st2 with (fst (st2, got)). rewrite <- E. apply seek_read_content.
Qed.
Lemma full_read_at st off n st2 got :
  read (seekg st (to_signed64 off)) n = (st2, got) -> off < 2 ^ 64 -> 0 < n -> lenN got = n ->
  got = sliceN (is_content st) off n.
Proof.
  intros E Ho Hn Hl. destruct (is_fail (seekg st (to_signed64 off))) eqn:F.
  - rewrite (read_failed _ _ F) in E. injection E as _ <-. cbn in Hl. lia.
  - rewrite (read_ok _ _ F) in E. injection E as _ <-. destruct (seekg_pos _ _ F) as (_ & Hp & ->).
    now rewrite (proj1 (seekg_content st _)), to_signed64_nonneg.
Qed.

Definition over (content : bytes) (k : skind) (st : istream) : Prop :=
  is_content st = content /\ st_inv st /\ is_kind st = k.
Lemma over_same content k st st1 : over content k st -> st_same st st1 -> over content k st1.
Proof. unfold over, st_same, st_inv. intros (? & ? & ?) (? & ? & ?). repeat split; congruence. Qed.

(* what section::load and segment::load do first: ask for the size of the stream (only when no address translation is
   installed), then seek to the table entry and read its [n] bytes *)
Definition open_entry (st : istream) (t : xlat) (pos : Z) (n : N) : istream * N * bytes :=
  let st1 := if xlat_empty t then seekg_end st else st in
  let r := read (seekg st1 (xlat_apply t pos)) n in
  (fst r, (if xlat_empty t then tellg_size st1 else SIZE_MAX), snd r).

Lemma open_entry_failed st t pos n : is_fail st = true -> exists ss, open_entry st t pos n = (st, ss, []).
Proof.
  intros F. unfold open_entry. destruct (xlat_empty t); rewrite ?(seekg_end_failed st F), (seekg_failed st _ F), (read_failed st n F); eauto.
Qed.
(* whatever the stream and the translation: the file stays the same, and a size that was asked for and is used (some
   byte of the entry was read, so the stream had not failed) is the length of the file *)
Lemma open_entry_spec content k st t pos n st3 ss got :
  over content k st -> open_entry st t pos n = (st3, ss, got) ->
  over content k st3 /\ (got <> [] -> xlat_empty t = true -> ss = lenN content).
Proof.
  intros Ho E. split.
  - injection E as <- _ _. apply (over_same _ _ _ _ Ho).
    eapply st_same_trans; [|apply seek_read_content].
    destruct (xlat_empty t); [apply seekg_end_content|apply st_same_refl].
  - intros Hg Hx. destruct (is_fail st) eqn:F.
    + destruct (open_entry_failed st t pos n F) as (ss' & E'). congruence.
    + unfold open_entry in E. rewrite Hx, (seekg_end_ok st F) in E. injection E as _ <- _.
      destruct Ho as (<- & Hi & _). exact Hi.
Qed.
Lemma open_entry_plain st pos n :
  is_fail st = false -> st_inv st ->
  exists st3, open_entry st [] (Z.of_N pos) n = (st3, lenN (is_content st), sliceN (is_content st) pos n) /\
              st_same st st3 /\
              (pos + n <= lenN (is_content st) -> is_fail st3 = false) /\
              (lenN (is_content st) < pos + n -> 0 < n -> is_fail st3 = true).
Proof.
  intros F Hi. unfold open_entry. cbn [xlat_empty xlat_apply]. rewrite (seekg_end_ok st F).
  set (st1 := mkIstream _ _ _ _ _). destruct (seek_read_at st1 pos n eq_refl Hi) as (R1 & R2).
  exists (fst (read (seekg st1 (Z.of_N pos)) n)). rewrite R1. split; [do 2 f_equal; exact Hi|]. split; [|exact R2].
  exact (seek_read_content st1 _ n).
Qed.

(* buffers asked for while loading are bounded by the file (plus the terminator) when no address translation is installed *)
Definition bounded (content : bytes) (t : xlat) (al : list N) : Prop :=
  xlat_empty t = true -> Forall (fun n => n <= lenN content + 1) al.
Lemma bounded_nil content t : bounded content t [].
Proof. intros _. constructor. Qed.
Lemma bounded_app content t a b : bounded content t a -> bounded content t b -> bounded content t (a ++ b).
Proof. intros Ha Hb Hx. apply Forall_app. auto. Qed.

(* a section's resident buffer is one byte longer than its recorded size at least *)
Definition fits (s : section) : Prop :=
  match s_data s with Some b => sh_size s < lenN b | None => True end.

Definition hdr_same (s s1 : section) : Prop :=
  sh_name s1 = sh_name s /\ sh_type s1 = sh_type s /\ sh_flags s1 = sh_flags s /\ sh_addr s1 = sh_addr s /\
  sh_offset s1 = sh_offset s /\ sh_size s1 = sh_size s /\ sh_link s1 = sh_link s /\ sh_info s1 = sh_info s /\
  sh_addralign s1 = sh_addralign s /\ sh_entsize s1 = sh_entsize s /\ s_stream_size s1 = s_stream_size s /\
  s_cls s1 = s_cls s /\ s_index s1 = s_index s /\ s_name s1 = s_name s.
Lemma hdr_same_refl s : hdr_same s s. Proof. repeat split. Qed.
Lemma hdr_same_trans a b c : hdr_same a b -> hdr_same b c -> hdr_same a c.
Proof. unfold hdr_same. intros H1 H2. decompose [and] H1. decompose [and] H2. repeat split; congruence. Qed.
Lemma hdr_same_type s s1 : hdr_same s s1 -> sh_type s1 = sh_type s. Proof. intros H. apply H. Qed.
Lemma hdr_same_offset s s1 : hdr_same s s1 -> sh_offset s1 = sh_offset s. Proof. intros H. apply H. Qed.
Lemma hdr_same_size s s1 : hdr_same s s1 -> sh_size s1 = sh_size s. Proof. intros H. apply H. Qed.
Lemma hdr_same_entsize s s1 : hdr_same s s1 -> sh_entsize s1 = sh_entsize s. Proof. intros H. apply H. Qed.
Lemma hdr_same_stream_size s s1 : hdr_same s s1 -> s_stream_size s1 = s_stream_size s. Proof. intros H. apply H. Qed.
Lemma hdr_same_flags s lz ld cl : hdr_same s (with_load_flags s lz ld cl). Proof. repeat split. Qed.
Lemma hdr_same_data s d n : hdr_same s (with_data s d n). Proof. repeat split. Qed.

(* where the bytes of a section come from *)
Definition sec_file_off (t : xlat) (s : section) : N := of_signed64 (xlat_apply t (to_signed64 (sh_offset s))).
Lemma of_signed64_lt z : of_signed64 z < 2 ^ 64.
Proof. unfold of_signed64. lia. Qed.

Definition sec_req_post (st0 : istream) (s : section) (st1 : istream) (s1 : section) (al : list N) : Prop :=
  fits s1 /\ hdr_same s s1 /\ st_same st0 st1 /\
  Forall (fun n => n <= s_stream_size s + 1) al /\ (sh_type s = SHT_NULL -> al = []).
(* load_data(): besides, data that appears comes from the file *)
Definition sec_load_ok (st0 : istream) (t : xlat) (s : section) (r : res (option istream * section * bool * list N)) : Prop :=
  exists st1 s1 ok al,
    r = Ok (Some st1, s1, ok, al) /\ sec_req_post st0 s st1 s1 al /\
    (s_data s = None -> forall d, s_data s1 = Some d -> 0 < sh_size s ->
       d = sliceN (is_content st0) (sec_file_off t s) (sh_size s) ++ [0] /\
       sec_file_off t s + sh_size s <= s_stream_size s).

Lemma sec_req_quiet st0 s s1 : fits s -> hdr_same s s1 -> s_data s1 = s_data s -> sec_req_post st0 s st0 s1 [].
Proof.
  intros F HS D. split; [unfold fits in *; rewrite D, (hdr_same_size _ _ HS); exact F|].
  split; [exact HS|]. split; [apply st_same_refl|]. split; [constructor|reflexivity].
Qed.
Lemma sec_load_quiet st0 t s s1 ok :
  fits s -> hdr_same s s1 -> s_data s1 = s_data s -> sec_load_ok st0 t s (Ok (Some st0, s1, ok, [])).
Proof.
  intros F HS D. exists st0, s1, ok, []. split; [reflexivity|]. split; [now apply sec_req_quiet|]. intros Hn d Hd. congruence.
Qed.

(* a section of the object being loaded: its buffer covers it, and (without translation) it is empty or recorded a
   stream size within the file.  Setting its address or its name leaves that as it is, by computation. *)
Definition sec_ok (content : bytes) (t : xlat) (s : section) : Prop :=
  fits s /\ (xlat_empty t = true -> s_stream_size s <= lenN content \/ sh_type s = SHT_NULL).
Lemma sec_ok_same content t s s1 : sec_ok content t s -> hdr_same s s1 -> fits s1 -> sec_ok content t s1.
Proof. intros [_ H] HS F. split; [exact F|]. now rewrite (hdr_same_stream_size _ _ HS), (hdr_same_type _ _ HS). Qed.
(* the section an entry cut short by the end of the stream yields *)
Lemma zero_header_null c enc idx ss :
  let s0 := with_index (new_section c) idx in
  sh_type (sec_with_raw enc (with_stream_size s0 ss) (repeatN 0 (shdr_size (s_cls s0)))) = SHT_NULL.
Proof. destruct c, enc; reflexivity. Qed.
Lemma sec_req_keeps content t st0 s st1 s1 al :
  sec_ok content t s -> sec_req_post st0 s st1 s1 al -> sec_ok content t s1 /\ bounded content t al.
Proof.
  intros K (F1 & HS & _ & A1 & A2). split; [exact (sec_ok_same _ _ _ _ K HS F1)|]. intros Hx.
  destruct (proj2 K Hx) as [Hs|Hn]; [|rewrite (A2 Hn); constructor].
  eapply Forall_impl; [|exact A1]. cbv beta. intros n Hn. lia.
Qed.

Lemma get_string_raw_total b size idx : size <= lenN b -> exists r, get_string_raw (Some b) size idx = Ok r.
Proof.
  intros H. unfold get_string_raw. destruct (size <=? idx); [eauto|].
  destruct (find0 _ _ _); [eauto|]. destruct (N.ltb_spec (lenN b) size); [lia|eauto].
Qed.

Lemma map_res_total {A B} (f : A -> res B) (P : A -> Prop) (Q : B -> Prop) l :
  (forall x, P x -> exists y, f x = Ok y /\ Q y) -> Forall P l -> exists r, map_res f l = Ok r /\ Forall Q r.
Proof.
  intros Hf. induction 1 as [|x t Hx Ht IH]; cbn [map_res]; [exists []; auto|].
  destruct (Hf x Hx) as (y & -> & Qy). destruct IH as (r & -> & Qr). cbn [bind]. exists (y :: r). auto.
Qed.

Definition on_stream (content : bytes) (k : skind) (el : elfio) : Prop :=
  exists st, el_stream el = Some st /\ over content k st.

Definition el_ok (content : bytes) (k : skind) (el : elfio) : Prop :=
  Forall (sec_ok content (el_xlat el)) (el_secs el) /\ on_stream content k el.

(* the inflate step of an eager load: the buffer the interface hands back is one byte longer than the size *)
Lemma inflate_step_total compr lazy s :
  fits s -> exists s', inflate_step compr lazy s = Ok s' /\ fits s' /\ hdr_same s s'.
Proof.
  intros F. unfold inflate_step. destruct (lazy || negb (is_compressed compr s)); [exists s; auto using hdr_same_refl|].
  destruct (s_data s) as [b|] eqn:Ed; [|exists s; auto using hdr_same_refl].
  unfold fits in F. rewrite Ed in F. rewrite rd_some by lia. cbn [bind].
  eexists. split; [reflexivity|]. split; [|apply hdr_same_data].
  unfold fits. cbn. rewrite lenN_app, lenN_map, lenN_sliceN_in by lia. cbn [lenN]. lia.
Qed.

Definition gfits (g : segment) : Prop :=
  match g_data g with Some b => p_filesz g < lenN b | None => True end.
Definition seg_file_off (t : xlat) (g : segment) : N := of_signed64 (xlat_apply t (to_signed64 (p_offset g))).

(* what segment::load_data() leaves *)
Definition seg_load_ok (st0 : istream) (t : xlat) (g : segment) (r : res (option istream * segment * bool * list N)) : Prop :=
  exists st1 g1 ok al,
    r = Ok (Some st1, g1, ok, al) /\
    (gfits g -> gfits g1) /\ p_filesz g1 = p_filesz g /\ st_same st0 st1 /\
    Forall (fun n => n <= g_stream_size g + 1) al /\ (p_type g = PT_NULL -> al = []) /\
    (forall d, al <> [] -> g_data g1 = Some d ->
       d = sliceN (is_content st0) (seg_file_off t g) (p_filesz g) ++ [0] /\
       seg_file_off t g + p_filesz g <= g_stream_size g).

Lemma seg_load_quiet st0 t g g1 ok :
  (gfits g -> gfits g1) -> p_filesz g1 = p_filesz g -> seg_load_ok st0 t g (Ok (Some st0, g1, ok, [])).
Proof.
  intros F Z. exists st0, g1, ok, []. split; [reflexivity|]. split; [exact F|]. split; [exact Z|].
  split; [apply st_same_refl|]. split; [constructor|]. split; [reflexivity|]. intros d Hn. congruence.
Qed.

Lemma seg_load_data_total st0 t g : seg_load_ok st0 t g (seg_load_data (Some st0) t g).
Proof.
  unfold seg_load_data. fold (seg_file_off t g).
  set (off := seg_file_off t g). set (size := p_filesz g). set (ss := g_stream_size g).
  destruct (N.eqb_spec (p_type g) PT_NULL) as [E0|E0]; cbn [orb]; [apply seg_load_quiet; auto|].
  destruct (N.eqb_spec size 0) as [E1|E1]; [apply seg_load_quiet; auto|].
  assert (Refuse : seg_load_ok st0 t g (Ok (Some st0, seg_with_data g None (g_loaded g), false, []))).
  { apply seg_load_quiet; [intros _; exact I|reflexivity]. }
  destruct (N.ltb_spec ss off) as [H1|H1]; [exact Refuse|].
  destruct (N.ltb_spec ss size) as [H2|H2]; cbn [orb]; [exact Refuse|].
  destruct (N.ltb_spec (ss - off) size) as [H3|H3]; [exact Refuse|].
  destruct (N.ltb_spec (SIZE_MAX - 1) size) as [H4|H4]; [exact Refuse|]. clear Refuse.
  destruct (read (seekg st0 (to_signed64 off)) size) as [st2 got] eqn:ER.
  pose proof (seek_read_same _ _ _ _ _ ER) as SS.
  assert (Hal : Forall (fun n => n <= ss + 1) [size + 1]) by (constructor; [lia|constructor]).
  destruct (is_fail st2) eqn:Fl.
  - eexists st2, _, false, [size + 1]. split; [reflexivity|]. split; [intros _; exact I|]. split; [reflexivity|].
    split; [exact SS|]. split; [exact Hal|]. split; [tauto|]. discriminate.
  - assert (Hlen : lenN got = size).
    { pose proof (read_not_failed (seekg st0 (to_signed64 off)) size) as R. rewrite ER in R. exact (R Fl). }
    eexists st2, _, true, [size + 1]. split; [reflexivity|].
    split; [intros _; unfold gfits; cbn; rewrite lenN_app, Hlen; fold size; cbn [lenN]; lia|]. split; [reflexivity|].
    split; [exact SS|]. split; [exact Hal|]. split; [tauto|].
    intros d _ [= <-]. split; [|lia]. do 2 f_equal. exact (full_read_at _ _ _ _ _ ER (of_signed64_lt _) ltac:(lia) Hlen).
Qed.

Lemma seg_get_data_total st0 t g :
  gfits g ->
  exists st1 g1 al, seg_get_data (Some st0) t g = Ok (Some st1, g1, al) /\
                    gfits g1 /\ p_filesz g1 = p_filesz g /\ st_same st0 st1.
Proof.
  intros F. unfold seg_get_data. destruct (g_loaded g); [exists st0, g, []; auto using st_same_refl|].
  destruct (seg_load_data_total st0 t g) as (st1 & g1 & ok & al & -> & F1 & Z1 & SS & _). cbn [bind]. eauto 10.
Qed.

Definition segment_load_rest (st3 : istream) (ss : N) (got : bytes) (t : xlat) (enc : endian) (g : segment) (lazy : bool)
  : res (istream * segment * bool * list N) :=
  let g1 := seg_of_raw enc g (fill_struct (phdr_bytes enc g) got) ss lazy in
  if lazy || g_loaded g1 then Ok (st3, g1, true, [])
  else
    '(sto, g2, ok, al) <- seg_load_data (Some st3) t g1 ;;
    match sto with
    | Some st4 => Ok (st4, g2, ok, al)
    | None => Fault NullDeref
    end.
Lemma segment_load_unfold st t enc g pos lazy :
  segment_load st t enc g pos lazy =
  let '(st3, ss, got) := open_entry st t pos (phdr_size (g_cls g)) in segment_load_rest st3 ss got t enc g lazy.
Proof.
  unfold segment_load, open_entry, segment_load_rest.
  destruct (xlat_empty t); destruct (read _ _); reflexivity.
Qed.

Lemma fresh_phdr_null c enc ss lazy :
  p_type (seg_of_raw enc (new_segment c) (fill_struct (phdr_bytes enc (new_segment c)) []) ss lazy) = PT_NULL.
Proof. destruct c, enc; reflexivity. Qed.

Lemma segment_load_total content k st t enc c pos lazy :
  over content k st ->
  exists st' g' ok al,
    segment_load st t enc (new_segment c) pos lazy = Ok (st', g', ok, al) /\
    over content k st' /\ gfits g' /\ bounded content t al.
Proof.
  intros Ho. rewrite segment_load_unfold. set (g0 := new_segment c).
  destruct (open_entry st t pos (phdr_size (g_cls g0))) as [[st3 ss] got] eqn:E.
  destruct (open_entry_spec _ _ _ _ _ _ _ _ _ Ho E) as [O3 Hss].
  unfold segment_load_rest. set (g1 := seg_of_raw enc g0 (fill_struct (phdr_bytes enc g0) got) ss lazy).
  assert (F1 : gfits g1) by (unfold gfits, g1, seg_of_raw; destruct (g_cls g0); exact I).
  destruct (lazy || g_loaded g1).
  - exists st3, g1, true, []. auto using bounded_nil.
  - destruct (seg_load_data_total st3 t g1) as (st4 & g2 & ok & al & -> & F2 & _ & SS4 & A1 & A2 & _). cbn [bind].
    exists st4, g2, ok, al. split; [reflexivity|]. split; [exact (over_same _ _ _ _ O3 SS4)|]. split; [exact (F2 F1)|].
    intros Hx. destruct got as [|b got'].
    + (* nothing was read: the entry is that of a fresh segment, of type PT_NULL *)
      rewrite (A2 (fresh_phdr_null c enc ss lazy)). constructor.
    + replace (g_stream_size g1) with (lenN content) in A1; [exact A1|].
      rewrite <- (Hss ltac:(discriminate) Hx). unfold g1, seg_of_raw. destruct (g_cls g0); reflexivity.
Qed.

Lemma gfits_add_sections g l : gfits g -> gfits (fold_left (fun g idx => seg_add_section_index g idx 0) l g).
Proof.
  revert g; induction l as [|i t IH]; intros g H; cbn [fold_left]; [exact H|]. apply IH.
  unfold seg_add_section_index. destruct (_ <? 0); exact H.
Qed.

Lemma load_segments_loop_total content k fuel : forall st t secs enc c offset entsize i num lazy racc allocs,
  over content k st -> Forall gfits racc -> bounded content t allocs ->
  exists st' racc' ok allocs',
    load_segments_loop fuel st t secs enc c offset entsize i num lazy racc allocs = Ok (st', racc', ok, allocs') /\
    over content k st' /\ Forall gfits racc' /\ bounded content t allocs'.
Proof.
  induction fuel as [|f IH]; intros st t secs enc c offset entsize i num lazy racc allocs Ho Hr Ha; cbn [load_segments_loop].
  - exists st, racc, true, allocs. auto.
  - destruct (i <? num); [|exists st, racc, true, allocs; auto].
    destruct (segment_load_total content k st t enc c (table_pos offset i entsize) lazy Ho)
      as (st1 & g1 & ok & al & -> & O1 & F1 & A1).
    cbn [bind]. destruct (negb ok || is_fail st1).
    + exists st1, racc, false, (al ++ allocs). auto using bounded_app.
    + apply IH; [exact O1| |now apply bounded_app]. constructor; [|exact Hr]. apply gfits_add_sections. exact F1.
Qed.

Lemma load_segments_total content k st el h lazy :
  over content k st -> el_hdr el = Some h -> el_segs el = [] ->
  exists st' el' ok al,
    load_segments st el lazy = Ok (st', el', ok, al) /\
    over content k st' /\ Forall gfits (el_segs el') /\
    el_secs el' = el_secs el /\ el_hdr el' = Some h /\ bounded content (el_xlat el) al.
Proof.
  intros Ho Hh Hg. unfold load_segments. rewrite Hh.
  destruct (_ || _).
  { exists st, el, false, []. rewrite Hg. auto 10 using bounded_nil. }
  set (c := if nthN (e_ident h) 4 0 =? 2 then C64 else C32).
  destruct (load_segments_loop_total content k (N.to_nat (e_phnum h)) st (el_xlat el) (el_secs el) (e_enc h) c (e_phoff h) (e_phentsize h)
              0 (e_phnum h) lazy [] [] Ho ltac:(constructor) (bounded_nil _ _))
    as (st1 & racc & ok & ral & -> & O1 & Fr & A1).
  cbn [bind]. eexists st1, _, ok, _. split; [reflexivity|]. split; [exact O1|].
  split; [apply Forall_rev_append; [exact Fr|constructor]|]. split; [reflexivity|]. split; [exact Hh|].
  intro Hx. apply Forall_rev_append; [exact (A1 Hx)|constructor].
Qed.

(* what holds of an object after load() returned, whatever the bytes were *)
Definition loaded_ok (content : bytes) (k : skind) (el : elfio) : Prop :=
  Forall fits (el_secs el) /\ Forall gfits (el_segs el) /\
  exists st, el_stream el = Some st /\ is_content st = content /\ st_inv st /\ is_kind st = k.

Lemma on_stream_same content k el st st1 el1 :
  on_stream content k el -> el_stream el = Some st -> st_same st st1 -> el_stream el1 = Some st1 ->
  on_stream content k el1.
Proof.
  intros (st' & E & O) Es SS E1. exists st1. split; [exact E1|]. rewrite Es in E. injection E as <-.
  exact (over_same _ _ _ _ O SS).
Qed.
Lemma loaded_ok_upd_sec content k el i s1 st st1 :
  loaded_ok content k el -> el_stream el = Some st -> st_same st st1 -> fits s1 ->
  loaded_ok content k (with_stream (upd_sec el i s1) (Some st1)).
Proof.
  intros (Hf & Hg & Ho) Es SS F1. split; [cbn; now apply Forall_updN|]. split; [exact Hg|].
  eapply on_stream_same; [exact Ho|exact Es|exact SS|reflexivity].
Qed.
Lemma loaded_ok_upd_seg content k el j g1 st st1 :
  loaded_ok content k el -> el_stream el = Some st -> st_same st st1 -> gfits g1 ->
  loaded_ok content k (with_stream (upd_seg el j g1) (Some st1)).
Proof.
  intros (Hf & Hg & Ho) Es SS F1. split; [exact Hf|]. split; [cbn; now apply Forall_updN|].
  eapply on_stream_same; [exact Ho|exact Es|exact SS|reflexivity].
Qed.

(* the identification check and the header decode of load(), as a function of what its two reads delivered *)
Definition decode_header (ident got : bytes) : option ehdr :=
  if negb (lenN ident =? 16) then None
  else if negb ((nthN ident 0 0 =? 127) && (nthN ident 1 0 =? 69) && (nthN ident 2 0 =? 76) && (nthN ident 3 0 =? 70)) then None
  else
    let cb := nthN ident 4 0 in let db := nthN ident 5 0 in
    if negb ((cb =? 2) || (cb =? 1)) then None
    else if negb ((db =? 1) || (db =? 2)) then None
    else
      let c := if cb =? 2 then C64 else C32 in
      let e := if db =? 1 then LSB else MSB in
      if negb (lenN got =? ehdr_size c) then None
      else Some (ehdr_of_bytes c e (fill_struct (ehdr_bytes (new_header c e)) got)).

Section WithEnv.
  Variable junk : N -> N.

  Lemma sec_load_data_total st0 t s : fits s -> sec_load_ok st0 t s (sec_load_data junk (Some st0) t s).
  Proof.
    intros Hf. unfold sec_load_data. fold (sec_file_off t s).
    set (off := sec_file_off t s). set (size := sh_size s). set (ss := s_stream_size s).
    assert (Refuse : sec_load_ok st0 t s (Ok (Some st0, s, false, [])))
      by (apply sec_load_quiet; [exact Hf|apply hdr_same_refl|reflexivity]).
    assert (Marked : sec_load_ok st0 t s (Ok (Some st0, with_load_flags s (s_lazy s) true (s_can_load s), true, [])))
      by (apply sec_load_quiet; [exact Hf|apply hdr_same_flags|reflexivity]).
    destruct (N.ltb_spec ss off) as [H1|H1]; [exact Refuse|].
    destruct (N.ltb_spec ss size) as [H2|H2]; cbn [orb]; [exact Refuse|].
    destruct (N.ltb_spec (ss - off) size) as [H3|H3]; [exact Refuse|].
    destruct (s_data s) as [b|] eqn:Hd; [exact Marked|].
    destruct (N.eqb_spec (sh_type s) SHT_NULL) as [Hn|Hn]; cbn [orb]; [exact Marked|].
    destruct (sh_type s =? SHT_NOBITS); [exact Marked|]. clear Marked.
    destruct (N.ltb_spec (SIZE_MAX - 1) size) as [H4|H4]; [exact Refuse|]. clear Refuse.
    assert (Alloc : forall st1 s1 ok, st_same st0 st1 -> hdr_same s s1 -> fits s1 ->
              (forall d, s_data s1 = Some d -> 0 < size -> d = sliceN (is_content st0) off size ++ [0] /\ off + size <= ss) ->
              sec_load_ok st0 t s (Ok (Some st1, s1, ok, [size + 1]))).
    { intros st1 s1 ok SS HS F1 Hfrom. exists st1, s1, ok, [size + 1]. split; [reflexivity|]. split; [|intros _; exact Hfrom].
      split; [exact F1|]. split; [exact HS|]. split; [exact SS|]. split; [|tauto].
      constructor; [fold ss; lia|constructor]. }
    destruct (N.eqb_spec size 0) as [H0|H0].
    { apply Alloc; [apply st_same_refl|exact (hdr_same_trans _ _ _ (hdr_same_data _ _ _) (hdr_same_flags _ _ _ _))| |intros; lia].
      unfold fits. cbn. rewrite lenN_alloc. fold size. lia. }
    destruct (read (seekg st0 (to_signed64 off)) size) as [st2 got] eqn:ER.
    pose proof (seek_read_same _ _ _ _ _ ER) as SS.
    destruct (N.eqb_spec (lenN got) size) as [Hg|Hg].
    - apply Alloc; [exact SS|exact (hdr_same_trans _ _ _ (hdr_same_data _ _ _) (hdr_same_flags _ _ _ _))| |].
      + unfold fits. cbn. rewrite lenN_app, Hg. fold size. cbn [lenN]. lia.
      + intros d [= <-] Hpos. split; [|lia]. do 2 f_equal. exact (full_read_at _ _ _ _ _ ER (of_signed64_lt _) Hpos Hg).
    - apply Alloc; [exact SS|apply hdr_same_data|exact I|discriminate].
  Qed.

  Lemma sec_get_data_total st0 t s :
    fits s -> exists st1 s1 al, sec_get_data junk (Some st0) t s = Ok (Some st1, s1, al) /\ sec_req_post st0 s st1 s1 al.
  Proof.
    intros Hf. unfold sec_get_data. destruct (negb (s_loaded s) && s_can_load s).
    - destruct (sec_load_data_total st0 t s Hf) as (st1 & s1 & ok & al & -> & P & _). cbn [bind].
      eexists st1, _, al. split; [reflexivity|]. destruct ok; [exact P|].
      destruct P as (F1 & HS & R). split; [exact F1|]. split; [exact (hdr_same_trans _ _ _ HS (hdr_same_flags _ _ _ _))|exact R].
    - exists st0, s, []. split; [reflexivity|]. apply sec_req_quiet; [exact Hf|apply hdr_same_refl|reflexivity].
  Qed.

  Definition section_load_rest (st3 : istream) (ss : N) (got : bytes) (t : xlat) (enc : endian) (s : section) (lazy : bool)
    : res (istream * section * list N) :=
    if negb (lenN got =? shdr_size (s_cls s)) then
      let s0 := sec_with_raw enc (with_stream_size s ss) (repeatN 0 (shdr_size (s_cls s))) in
      Ok (st3, with_load_flags s0 lazy (s_loaded s0) (s_can_load s0), [])
    else
    let s1 := sec_with_raw enc (with_stream_size s ss) (fill_struct (shdr_bytes enc s) got) in
    let s2 := with_load_flags s1 lazy (s_loaded s1) (s_can_load s1) in
    if lazy || s_loaded s2 then Ok (st3, s2, [])
    else
      '(sto, s3, al) <- sec_get_data junk (Some st3) t s2 ;;
      match sto with
      | Some st4 => Ok (st4, s3, al)
      | None => Fault NullDeref
      end.
  Lemma section_load_unfold st t enc s pos lazy :
    section_load junk st t enc s pos lazy =
    let '(st3, ss, got) := open_entry st t pos (shdr_size (s_cls s)) in section_load_rest st3 ss got t enc s lazy.
  Proof.
    unfold section_load, open_entry, section_load_rest.
    destruct (xlat_empty t); destruct (read _ _); reflexivity.
  Qed.

  Lemma section_load_total content k st t enc c idx pos lazy :
    over content k st ->
    exists st' s' al,
      section_load junk st t enc (with_index (new_section c) idx) pos lazy = Ok (st', s', al) /\
      over content k st' /\ sec_ok content t s' /\ bounded content t al.
  Proof.
    intros Ho. rewrite section_load_unfold. set (s0 := with_index (new_section c) idx).
    destruct (open_entry st t pos (shdr_size (s_cls s0))) as [[st3 ss] got] eqn:E.
    destruct (open_entry_spec _ _ _ _ _ _ _ _ _ Ho E) as [O3 Hss].
    unfold section_load_rest.
    destruct (N.eqb_spec (lenN got) (shdr_size (s_cls s0))) as [Hfull|Hshort]; cbn [negb].
    2:{
        eexists st3, _, []. split; [reflexivity|]. split; [exact O3|]. split; [|apply bounded_nil].
        split; [exact I|]. intros _. right. apply zero_header_null. }
    (* a complete entry was read, so the stream had not failed when its size was asked for *)
    set (s1 := sec_with_raw enc (with_stream_size s0 ss) (fill_struct (shdr_bytes enc s0) got)).
    set (s2 := with_load_flags s1 lazy (s_loaded s1) (s_can_load s1)).
    assert (K2 : sec_ok content t s2).
    { split; [exact I|]. intros Hx. left. change (s_stream_size s2) with ss.
      rewrite Hss; [lia| |exact Hx]. intros ->. destruct c; discriminate Hfull. }
    destruct (lazy || s_loaded s2).
    - exists st3, s2, []. split; [reflexivity|]. split; [exact O3|]. split; [exact K2|apply bounded_nil].
    - destruct (sec_get_data_total st3 t s2 (proj1 K2)) as (st4 & s3 & al & -> & P). cbn [bind].
      exists st4, s3, al. split; [reflexivity|]. split; [exact (over_same _ _ _ _ O3 (proj1 (proj2 (proj2 P))))|].
      exact (sec_req_keeps _ _ _ _ _ _ _ K2 P).
  Qed.

  Lemma load_sections_loop_total content k fuel : forall st t c enc offset entsize i num lazy racc allocs,
    over content k st -> Forall (sec_ok content t) racc -> bounded content t allocs ->
    exists st' racc' allocs',
      load_sections_loop junk fuel st t c enc offset entsize i num lazy racc allocs = Ok (st', racc', allocs') /\
      over content k st' /\ Forall (sec_ok content t) racc' /\ bounded content t allocs'.
  Proof.
    induction fuel as [|f IH]; intros st t c enc offset entsize i num lazy racc allocs Ho Hr Ha; cbn [load_sections_loop].
    - exists st, racc, allocs. auto.
    - destruct (i <? num); [|exists st, racc, allocs; auto].
      destruct (section_load_total content k st t enc c (wrap16 i) (table_pos offset i entsize) lazy Ho)
        as (st1 & s1 & al & -> & O1 & K1 & A1).
      cbn [bind]. apply IH; [exact O1| |now apply bounded_app].
      constructor; [exact K1|exact Hr].
  Qed.

  Lemma resolve_names_total content k el shstrndx allocs :
    el_ok content k el -> bounded content (el_xlat el) allocs ->
    exists el' allocs',
      resolve_names junk el shstrndx allocs = Ok (el', allocs') /\ el_ok content k el' /\
      el_hdr el' = el_hdr el /\ el_xlat el' = el_xlat el /\ el_segs el' = el_segs el /\
      bounded content (el_xlat el) allocs'.
  Proof.
    intros Hok Ha. pose proof Hok as (Hs & st & Es & Ho). unfold resolve_names.
    destruct (el_secs el) as [|s0 rest] eqn:Es0; [exists el, allocs; auto 10|]. rewrite <- Es0 in *.
    destruct (get_sec el shstrndx) as [sx|] eqn:Eg; [|exists el, allocs; auto 10].
    pose proof (Forall_nth_optN _ _ _ _ Hs Eg) as Kx. rewrite Es.
    destruct (sec_get_data_total st (el_xlat el) sx (proj1 Kx)) as (st1 & sx1 & al & -> & P). cbn [bind].
    destruct (sec_req_keeps _ _ _ _ _ _ _ Kx P) as [Kx1 A1]. destruct P as (F1 & _ & SS & _).
    destruct (map_res_total
                (fun si => r <- get_string_raw (s_data sx1) (sh_size sx1) (sh_name si) ;;
                           Ok (match r with Some nm => with_name si nm | None => si end))
                (sec_ok content (el_xlat el)) (sec_ok content (el_xlat el))
                (el_secs (with_stream (upd_sec el shstrndx sx1) (Some st1)))) as (secs & -> & Ksecs).
    { intros x Kxx. cbv beta. destruct (s_data sx1) as [b|] eqn:Ed; [|cbn [get_string_raw bind]; eauto].
      unfold fits in F1. rewrite Ed in F1.
      destruct (get_string_raw_total b (sh_size sx1) (sh_name x) ltac:(lia)) as (r & Er).
      unfold bytes in *. rewrite Er. cbn [bind]. destruct r; eauto. }
    { apply Forall_updN; assumption. }
    cbn [bind]. eexists _, _. split; [reflexivity|]. split; [|do 3 (split; [reflexivity|]); now apply bounded_app].
    split; [exact Ksecs|]. exists st1. split; [reflexivity|exact (over_same _ _ _ _ Ho SS)].
  Qed.

  Lemma load_sections_total content k st el h lazy :
    over content k st -> el_hdr el = Some h -> el_secs el = [] -> el_stream el = Some st ->
    exists st' el' al,
      load_sections junk st el lazy = Ok (st', el', al) /\
      el_ok content k el' /\ el_stream el' = Some st' /\
      el_hdr el' = el_hdr el /\ el_xlat el' = el_xlat el /\ el_segs el' = el_segs el /\
      bounded content (el_xlat el) al.
  Proof.
    intros Ho Hh Hsec Hst. unfold load_sections. rewrite Hh.
    destruct (_ || _).
    { exists st, el, []. split; [reflexivity|]. split; [|auto 10 using bounded_nil].
      split; [rewrite Hsec; constructor|exists st; auto]. }
    set (c := if nthN (e_ident h) 4 0 =? 2 then C64 else C32).
    destruct (load_sections_loop_total content k (N.to_nat (e_shnum h)) st (el_xlat el) c (e_enc h) (e_shoff h) (e_shentsize h)
                0 (e_shnum h) lazy [] [] Ho ltac:(constructor) (bounded_nil _ _))
      as (st1 & racc & ral & -> & O1 & Kr & A1).
    cbn [bind].
    destruct (map_res_total (inflate_step (el_compr el) lazy) (sec_ok content (el_xlat el)) (sec_ok content (el_xlat el))
                (rev_append racc [])) as (secs_i & -> & Ki).
    { intros s K. destruct (inflate_step_total (el_compr el) lazy s (proj1 K)) as (s' & E & F' & HS). eauto using sec_ok_same. }
    { apply Forall_rev_append; [exact Kr|constructor]. }
    cbn [bind].
    set (el2 := with_stream (with_secs el secs_i) (Some st1)).
    assert (Ok2 : el_ok content k el2) by (split; [exact Ki|exists st1; auto]).
    assert (Al : bounded content (el_xlat el) (rev_append ral [])).
    { intro Hx. apply Forall_rev_append; [exact (A1 Hx)|constructor]. }
    destruct (e_shstrndx h =? 0).
    { exists st1, el2, (rev_append ral []). auto 10. }
    destruct (resolve_names_total content k el2 (e_shstrndx h) (rev_append ral []) Ok2 Al)
      as (el3 & al2 & -> & Ok3 & H1 & H2 & H3 & A3).
    cbn [bind]. destruct Ok3 as (K3 & st3 & E3 & O3). rewrite E3.
    exists st3, el3, al2. split; [reflexivity|]. split; [split; [exact K3|exists st3; auto]|].
    split; [exact E3|]. split; [now rewrite H1|]. auto.
  Qed.
  (* load() once the header is there: the section pass, then the segment pass *)
  Definition load_body (el0 : elfio) (st4 : istream) (h : ehdr) (lazy : bool) : res (elfio * bool * list N) :=
    '(st5, el2, al1) <- load_sections junk st4 (with_stream (with_hdr el0 (Some h)) (Some st4)) lazy ;;
    '(st6, el3, ok, al2) <- load_segments st5 (with_stream el2 (Some st5)) lazy ;;
    Ok (with_stream el3 (Some st6), ok, al1 ++ al2).

  Lemma load_cases el k content lazy :
    let p0 := xlat_apply (el_xlat el) 0%Z in
    let r1 := read (seekg (open_istream k content) p0) 16 in
    let r2 := read (seekg (fst r1) p0) (ehdr_size (if nthN (snd r1) 4 0 =? 2 then C64 else C32)) in
    match decode_header (snd r1) (snd r2) with
    | None => exists r st, load junk el k content lazy = Ok (with_stream r (Some st), false, []) /\
                           el_secs r = [] /\ el_segs r = [] /\ over content k st
    | Some h => load junk el k content lazy = load_body (with_segs (with_secs el []) []) (fst r2) h lazy /\
                over content k (fst r2)
    end.
  Proof.
    intros p0 r1 r2. subst r2. unfold load, decode_header. fold p0. fold r1.
    assert (O1 : over content k (fst r1)).
    { apply (over_same content k (open_istream k content)); [repeat split|apply seek_read_content]. }
    destruct r1 as [st2 ident]. cbn [fst snd] in *.
    assert (Fail : exists r st, Ok (with_stream (with_segs (with_secs el []) []) (Some st2), false, @nil N) = Ok (with_stream r (Some st), false, []) /\
                     el_secs r = [] /\ el_segs r = [] /\ over content k st) by (eexists _, _; eauto).
    destruct (negb (lenN ident =? 16)); [exact Fail|].
    destruct (negb (_ && _ && _ && _)); [exact Fail|].
    destruct (negb ((nthN ident 4 0 =? 2) || _)); [exact Fail|].
    destruct (negb ((nthN ident 5 0 =? 1) || _)); [exact Fail|]. clear Fail. cbv zeta.
    set (c := if nthN ident 4 0 =? 2 then C64 else C32).
    assert (O2 : over content k (fst (read (seekg st2 p0) (ehdr_size c)))).
    { exact (over_same _ _ _ _ O1 (seek_read_content _ _ _)). }
    destruct (read (seekg st2 p0) (ehdr_size c)) as [st4 got]. cbn [fst snd] in *.
    destruct (negb (lenN got =? ehdr_size c)); [eexists _, _; eauto|]. split; [reflexivity|exact O2].
  Qed.

  Lemma load_body_total content k el0 st4 h lazy :
    over content k st4 -> el_secs el0 = [] -> el_segs el0 = [] ->
    exists el' ok allocs,
      load_body el0 st4 h lazy = Ok (el', ok, allocs) /\
      loaded_ok content k el' /\ el_hdr el' = Some h /\ bounded content (el_xlat el0) allocs.
  Proof.
    intros O4 Hs Hg. unfold load_body.
    destruct (load_sections_total content k st4 (with_stream (with_hdr el0 (Some h)) (Some st4)) h lazy O4 eq_refl Hs eq_refl)
      as (st5 & el2 & al1 & -> & (K2 & stx & Esx & O5) & Es2 & H2 & X2 & G2 & L1).
    cbn [bind]. rewrite Es2 in Esx. injection Esx as <-.
    destruct (load_segments_total content k st5 (with_stream el2 (Some st5)) h lazy O5 H2 (eq_trans G2 Hg))
      as (st6 & el3 & ok & al2 & -> & O6 & FG & S3 & H3 & L2).
    cbn [bind]. eexists _, _, _. split; [reflexivity|]. split; [|split; [exact H3|]].
    - split; [cbn; rewrite S3; eapply Forall_impl; [|exact K2]; exact (fun s => @proj1 _ _)|]. split; [exact FG|]. exists st6. auto.
    - apply bounded_app; [exact L1|]. intro Hx. apply L2. cbn. rewrite X2. exact Hx.
  Qed.

  Theorem load_total el k content lazy :
    exists el' ok allocs,
      load junk el k content lazy = Ok (el', ok, allocs) /\
      loaded_ok content k el' /\
      (xlat_empty (el_xlat el) = true -> Forall (fun n => n <= lenN content + 1) allocs).
  Proof.
    pose proof (load_cases el k content lazy) as H. cbv zeta in H.
    destruct (decode_header _ _) as [h|].
    - destruct H as [-> O4].
      destruct (load_body_total content k (with_segs (with_secs el []) []) _ h lazy O4 eq_refl eq_refl) as (el' & ok & al & E & L & _ & B). exists el', ok, al. exact (conj E (conj L B)).
    - destruct H as (r & st & -> & Hs & Hg & Ho). eexists _, _, _. split; [reflexivity|]. split; [|intros _; constructor].
      split; [cbn; rewrite Hs; constructor|]. split; [cbn; rewrite Hg; constructor|]. exists st. auto.
  Qed.
End WithEnv.
