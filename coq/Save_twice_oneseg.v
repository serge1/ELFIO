(* Save_twice_oneseg.v — C06 at the level of the bytes for objects with one segment of automatically addressed members. *)
From ElfioV Require Import Bytes Mem Stream SectionData Elfio Loader Layout Writer Layout_proofs Segment_proofs
     Writer_proofs Oneseg_proofs Oneseg_writer Oneseg_again ByName_proofs Save_twice.
Local Open Scope N_scope.

(* the layout changes sizes, offset and alignment of a segment record, not what it holds or where it came from *)
Definition same_origin (g g' : segment) : Prop :=
  g_data g' = g_data g /\ g_stream_size g' = g_stream_size g /\ g_loaded g' = g_loaded g.

Lemma layout_one_segment_keeps_origin h g secs gen pos g' secs' gen' pos' ok :
  layout_one_segment h g secs gen pos = Ok (g', secs', gen', pos', ok) -> same_origin g g'.
Proof.
  intros H. unfold layout_one_segment in H.
  match type of H with context [bind ?X _] => destruct X as [[[[a b] c] d]|] eqn:E1 end; cbn [bind] in H; [|discriminate].
  destruct (write_segment_data g a _ _) as [[w ok']|]; cbn [bind] in H; [|discriminate].
  destruct ok'.
  - injection H as <- _ _ _ _. destruct (p_memsz _ <? _); destruct g; repeat split.
  - injection H as <- _ _ _ _. repeat split.
Qed.

(* a segment built through the API (no data, no stream) stays as it is under data requests *)
Lemma seg_stable_api st t g : g_data g = None -> g_stream_size g = 0 -> seg_stable st t g.
Proof.
  intros Hd Hs. unfold seg_stable, seg_get_data. destruct (g_loaded g) eqn:Hl; [reflexivity|]. unfold seg_load_data.
  assert (E : seg_with_data g None false = g) by (destruct g; cbn in *; subst; reflexivity).
  destruct ((p_type g =? PT_NULL) || (p_filesz g =? 0)) eqn:E0; cbn [bind]; [reflexivity|]. rewrite Hs, Hl, E.
  destruct (0 <? _); [reflexivity|].
  (* the segment has a file size, the stream has none *)
  apply orb_false_iff in E0. destruct E0 as [_ E0]. apply N.eqb_neq in E0.
  destruct (N.ltb_spec 0 (p_filesz g)); [reflexivity|lia].
Qed.

Lemma laid_origin el h0 g bound ms el' h' g' ss pos1 pos2 :
  oneseg el h0 g bound ms -> laid el h0 g ms el' h' g' ss pos1 pos2 -> same_origin g g'.
Proof.
  intros O L. pose proof (ld_layout L) as H. pose proof (ld_segs L) as Eg.
  rewrite (layout_single el h0 g (og_hdr O) (og_segs O) (og_nsec O)) in H.
  - destruct (layout_one_segment _ g _ _ _) as [[[[[g1 s1] gen1] p1] ok1]|] eqn:El; cbn [bind] in H; [|discriminate].
    destruct ok1; [|discriminate]. injection H as H. rewrite <- H in Eg. injection Eg as <-.
    exact (layout_one_segment_keeps_origin _ _ _ _ _ _ _ _ _ _ El).
  - (* the segment's alignment dominates its members': calc_seg_align has nothing to do *)
    apply calc_seg_align_noop. rewrite (proj2 (seg_sections_all g (og_nmem O))). intros i Hi.
    destruct (oneseg_member _ _ _ _ _ O i Hi) as (s & Hs & P). exists s. split; [exact P|].
    pose proof (og_dominates O) as D. rewrite Forall_forall in D. exact (D s Hs).
  - pose proof (og_room O). pose proof (og_bound O). lia.
Qed.

(* C06, the bytes: an object with one segment of automatically addressed members plus free sections, built through the
   API (the segment holds no data of its own and came from no stream), whose sections have been requested before:
   whatever save() returned - object, stream, verdict - saving the returned object returns again *)
Theorem save_twice_oneseg junk el0 os h0 g bound ms :
  oneseg el0 h0 g bound ms ->
  os_bad os = false -> xlat_empty (el_xlat el0) = true ->
  Forall (fun s => sh_size s <> 0) ms -> bound <= 2 ^ 63 -> 0 < e_ehsize h0 + e_phentsize h0 ->
  Forall quiet (el_secs el0) -> g_data g = None -> g_stream_size g = 0 -> g_loaded g = false ->
  (forall s, In s (el_secs el0) -> s_index s = 0 -> csize s = 0) ->
  forall r, save junk el0 os = Ok r -> save junk (fst (fst r)) os = Ok r.
Proof.
  intros O Hos Hx Hnz Hb63 Hp0 Q Hgd Hgs Hgl Hnull.
  pose proof (og_hdr O) as Hh. pose proof (og_segs O) as Hs. pose proof (og_auto_offset O) as Hof. pose proof (og_cls O) as Hcls.
  destruct (oneseg_laid el0 h0 g bound ms O) as (el1 & h' & g' & ss & pos1 & pos2 & L).
  destruct (layout_oneseg_twice el0 h0 g bound ms O Hnz Hb63 Hp0)
    as (el1' & L1' & L2).
  rewrite (ld_layout L) in L1'. injection L1' as <-.
  destruct (laid_origin _ _ _ _ _ _ _ _ _ _ _ O L) as (D1 & D2 & D3).
  pose proof (ld_relaid L) as HR. pose proof (laid_pos2 O L) as Hend.
  apply (save_twice junk el0 os el1 h0 Hos Hh Q); try assumption.
  - rewrite Hs. constructor; [|constructor]. now apply seg_stable_api.
  - exact (ld_layout L).
  - exact (Forall2_Forall relaid_quiet HR Q).
  - apply (offset_norm_below _ _ pos2 bound HR Hcls); [|clear - Hend; lia].
    intros s Hin E0. now apply (placed_in (laid_placed O L Hnull) s Hin E0).
  - rewrite (ld_segs L). constructor; [|constructor]. apply seg_stable_api; congruence.
Qed.
