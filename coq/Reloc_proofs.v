(* Reloc_proofs.v — C11: relocation entries round-trip with the ABI packing. *)
From ElfioV Require Import Bytes Mem SectionData SectionData_proofs Table Accessors Elfio_proofs.
Local Open Scope N_scope.

(* info packing: 24+8 bits in ELF32, 32+32 bits in ELF64 *)
Definition sym_fits (c : cls) (sym : N) : Prop := match c with C32 => sym < 2 ^ 24 | C64 => sym < 2 ^ 32 end.
Definition type_fits (c : cls) (ty : N) : Prop := match c with C32 => ty < 2 ^ 8 | C64 => ty < 2 ^ 32 end.

Lemma r_info_abi c sym ty : sym_fits c sym -> type_fits c ty ->
  r_info c sym ty = match c with C32 => sym * 2 ^ 8 + ty | C64 => sym * 2 ^ 32 + ty end.
Proof.
  destruct c; cbn [sym_fits type_fits r_info]; unfold wrap32, wrap64, wrap8; intros Hs Ht.
  - now rewrite (wrap_small 8), (wrap_small 64), (wrap_small 32) by lia.
  - now rewrite (wrap_small 32), (wrap_small 64 (_ * _)), (wrap_small 64) by lia.
Qed.

Lemma r_sym_info c sym ty : sym_fits c sym -> type_fits c ty -> r_sym c (r_info c sym ty) = sym.
Proof.
  intros Hs Ht. rewrite r_info_abi by assumption.
  destruct c; cbn [sym_fits type_fits r_sym] in *; rewrite shiftr_div; unfold wrap32, wrap; lia.
Qed.

Lemma r_type_info c sym ty : sym_fits c sym -> type_fits c ty -> r_type c (r_info c sym ty) = ty.
Proof.
  intros Hs Ht. rewrite r_info_abi by assumption.
  destruct c; cbn [sym_fits type_fits r_type] in *; unfold wrap8, wrap32, wrap; lia.
Qed.

Record rel_entry := mkRelEntry { re_offset : N; re_symbol : N; re_type : N; re_addend : N }.

Definition rel_lay (c : cls) (is_rela : bool) : list nat := if is_rela then rela_layout c else rel_layout c.
Definition rel_esz (c : cls) (is_rela : bool) : N := layout_size (rel_lay c is_rela).

(* the bytes add_entry( offset, symbol, type [, addend] ) appends *)
Definition rel_enc (c : cls) (e : endian) (is_rela : bool) (r : rel_entry) : bytes :=
  enc_rel c e is_rela (re_offset r) (r_info c (re_symbol r) (re_type r)) (re_addend r).

(* what get_entry must report for it *)
Definition rel_view (c : cls) (is_rela : bool) (r : rel_entry) : relview :=
  mkRelview (wrap (xw c) (re_offset r)) (re_symbol r) (re_type r)
            (if is_rela then sext (xw c) (wrap (xw c) (re_addend r)) else 0).

Definition rel_fits (c : cls) (r : rel_entry) : Prop := sym_fits c (re_symbol r) /\ type_fits c (re_type r).

Lemma rel_enc_len c e is_rela r : lenN (rel_enc c e is_rela r) = rel_esz c is_rela.
Proof.
  unfold rel_enc, enc_rel, rel_esz, rel_lay. destruct is_rela; apply lenN_enc_fields; destruct c; reflexivity.
Qed.

Lemma rel_esz_pos c is_rela : 0 < rel_esz c is_rela.
Proof. now destruct c, is_rela. Qed.

Lemma pow256_xw c : 256 ^ N.of_nat (match c with C32 => 4 | C64 => 8 end) = 2 ^ xw c.
Proof. destruct c; reflexivity. Qed.

Lemma r_info_lt c sym ty : r_info c sym ty < 2 ^ xw c.
Proof. destruct c; apply wrap_lt. Qed.

Lemma rel_decode c e is_rela r :
  dec_fields e (rel_lay c is_rela) (rel_enc c e is_rela r) =
  wrap (xw c) (re_offset r) :: r_info c (re_symbol r) (re_type r) ::
  (if is_rela then [wrap (xw c) (re_addend r)] else []).
Proof.
  unfold rel_enc, enc_rel, rel_lay. rewrite (wrap_small _ _ (r_info_lt c _ _)).
  destruct is_rela; apply dec_enc_fields_fit; destruct c; repeat constructor; apply wrap_lt || apply r_info_lt.
Qed.

Lemma rel_type_tests (is_rela : bool) ty : ty = (if is_rela then SHT_RELA else SHT_REL) ->
  (ty =? SHT_REL) = negb is_rela /\ (ty =? SHT_RELA) = is_rela.
Proof. intros ->. now destruct is_rela. Qed.

Lemma rel_num_table c e is_rela s es :
  holds_table (rel_enc c e is_rela) s es -> sh_entsize s = rel_esz c is_rela -> rel_entries_num s = lenN es.
Proof.
  intros H HE. pose proof (rel_esz_pos c is_rela) as Hp. unfold rel_entries_num.
  rewrite HE, (proj2 (N.eqb_neq _ 0)) by lia.
  exact (table_num _ _ (rel_enc_len c e is_rela) H Hp).
Qed.

Record rel_sec c e (is_rela : bool) (sz : N) (es : list rel_entry) (s : section) : Prop := mk_rel_sec {
  rs_table : holds_table (rel_enc c e is_rela) s es;
  rs_cls : s_cls s = c;
  rs_type : sh_type s = (if is_rela then SHT_RELA else SHT_REL);
  rs_entsize : sh_entsize s = rel_esz c is_rela;
  rs_size : sh_size s = sz }.
Arguments rs_table {c e is_rela sz es s}.
Arguments rs_cls {c e is_rela sz es s}.
Arguments rs_type {c e is_rela sz es s}.
Arguments rs_entsize {c e is_rela sz es s}.
Arguments rs_size {c e is_rela sz es s}.

Lemma rel_sec_intro c e is_rela es s :
  Inv s -> s_cls s = c -> contents s = concat (map (rel_enc c e is_rela) es) ->
  sh_type s = (if is_rela then SHT_RELA else SHT_REL) -> sh_entsize s = rel_esz c is_rela ->
  rel_sec c e is_rela (sh_size s) es s.
Proof. intros HI HK HC HT HE. exact (mk_rel_sec _ _ _ _ _ _ (conj HI HC) HK HT HE eq_refl). Qed.

Lemma rel_sec_Inv {c e is_rela sz es s} : rel_sec c e is_rela sz es s -> Inv s.
Proof. intros H. exact (proj1 (rs_table H)). Qed.

Lemma rel_sec_contents {c e is_rela sz es s} :
  rel_sec c e is_rela sz es s -> contents s = concat (map (rel_enc c e is_rela) es).
Proof. intros H. exact (proj2 (rs_table H)). Qed.

Lemma rel_sec_same_bytes {c e is_rela sz es s} es' :
  concat (map (rel_enc c e is_rela) es) = concat (map (rel_enc c e is_rela) es') ->
  rel_sec c e is_rela sz es s -> rel_sec c e is_rela sz es' s.
Proof.
  intros Heq H. refine (mk_rel_sec _ _ _ _ _ _ (conj (rel_sec_Inv H) _) (rs_cls H) (rs_type H) (rs_entsize H) (rs_size H)).
  now rewrite <- Heq, <- (rel_sec_contents H).
Qed.

Theorem rel_roundtrip c e is_rela sz s es j r :
  rel_sec c e is_rela sz es s -> sz < size_bound c -> nth_optN es j = Some r -> rel_fits c r ->
  rel_get_core c e s (s_data s) j = Ok (Some (rel_view c is_rela r)).
Proof.
  intros Hs HB Hn [Hsy Hty]. pose proof (rs_table Hs) as H. rewrite <- (rs_size Hs) in HB.
  pose proof (rel_enc_len c e is_rela) as EL. pose proof (rel_esz_pos c is_rela) as Hp.
  destruct (rel_type_tests is_rela _ (rs_type Hs)) as [T1 T2].
  unfold rel_get_core.
  rewrite (rel_num_table c e is_rela s es H (rs_entsize Hs)), (proj2 (N.leb_gt _ _) (nth_optN_lt _ _ _ Hn)).
  rewrite T1, T2, orb_negb_l, (rs_entsize Hs). cbn [negb]. rewrite !if_negb.
  rewrite layout_sz_size. fold (rel_lay c is_rela) (rel_esz c is_rela).
  rewrite N.ltb_irrefl, (table_resident _ _ EL H Hn Hp).
  rewrite (table_read64 _ _ EL H Hp (size_bound_64 _ _ HB) Hn). cbn [bind].
  rewrite rel_decode.
  change (nthN (?a :: _) 0 0) with a. change (nthN (_ :: ?b :: _) 1 0) with b.
  rewrite r_sym_info, r_type_info by assumption. unfold rel_view. now destruct is_rela.
Qed.

Theorem rel_out_of_range c e is_rela s es j p :
  Inv s -> contents s = concat (map (rel_enc c e is_rela) es) ->
  sh_entsize s = rel_esz c is_rela -> lenN es <= j ->
  rel_get_core c e s p j = Ok None.
Proof.
  intros HI HC HE Hj. unfold rel_get_core.
  now rewrite (rel_num_table c e is_rela s es (conj HI HC) HE), (proj2 (N.leb_le _ _) Hj).
Qed.

Theorem rel_set_changes_only_that_entry c e is_rela sz s es j r r' :
  rel_sec c e is_rela sz es s -> sz < size_bound c -> nth_optN es j = Some r ->
  exists b',
    rel_set_core c e s (s_data s) j (re_offset r') (re_symbol r') (re_type r') (re_addend r') = Ok (Some b') /\
    rel_sec c e is_rela sz (updN es j r') (with_data s (Some b') (s_data_size s)).
Proof.
  intros Hs HB Hn. pose proof (rs_table Hs) as H. rewrite <- (rs_size Hs) in HB.
  pose proof (rel_enc_len c e is_rela) as EL. pose proof (rel_esz_pos c is_rela) as Hp.
  unfold rel_set_core.
  rewrite (table_resident _ _ EL H Hn Hp), (proj2 (rel_type_tests is_rela _ (rs_type Hs))), (rs_entsize Hs).
  rewrite (table_off64 _ _ EL H (size_bound_64 _ _ HB) (nth_optN_lt _ _ _ Hn)).
  destruct (table_write _ _ EL r' H Hp Hn) as (b' & E & H').
  exists b'. split; [exact E|]. exact (mk_rel_sec _ _ _ _ _ _ H' (rs_cls Hs) (rs_type Hs) (rs_entsize Hs) (rs_size Hs)).
Qed.
