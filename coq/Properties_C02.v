(* Properties_C02.v — C02: the reader reports what the ELF specification says is in the file. *)
From ElfioV Require Import Bytes Mem Stream SectionData Strings Strings_proofs Elfio Table Loader Load_proofs Data_proofs Codec_proofs Reader_proofs Reload_oneseg Segtable_proofs.
Local Open Scope N_scope.

(* ELF header: a file that begins with the gABI encoding of a header (either
   class, either byte order, every field over its full width) loads to an object
   reporting exactly that header; section and segment passes do not change it. *)
Theorem C02_header_reported :
  forall junk el k rest lazy h,
    xlat_empty (el_xlat el) = true -> ehdr_wf h ->
    nthN (e_ident h) 0 0 = 127 -> nthN (e_ident h) 1 0 = 69 -> nthN (e_ident h) 2 0 = 76 -> nthN (e_ident h) 3 0 = 70 ->
    nthN (e_ident h) 4 0 = cls_byte (e_cls h) -> nthN (e_ident h) 5 0 = enc_byte (e_enc h) ->
    exists el' ok al, load junk el k (ehdr_bytes h ++ rest) lazy = Ok (el', ok, al) /\ el_hdr el' = Some h.
Proof.
  intros junk el k rest lazy h Hx Hwf M0 M1 M2 M3 M4 M5.
  apply load_reports_header; [exact Hx|]. now apply parse_header_of_encoding.
Qed.
Print Assumptions C02_header_reported.

(* section headers: the table entry at a position is reported field by field *)
Theorem C02_section_header_reported :
  forall junk st enc c idx (pos : N) lazy s',
    is_fail st = false -> st_inv st -> pos < 2 ^ 63 -> pos + shdr_size c <= lenN (is_content st) ->
    s_cls s' = c -> shdr_wf s' ->
    sliceN (is_content st) pos (shdr_size c) = shdr_bytes enc s' ->
    exists st' r al,
      section_load junk st [] enc (with_index (new_section c) idx) (Z.of_N pos) lazy = Ok (st', r, al) /\
      sh_name r = sh_name s' /\ sh_type r = sh_type s' /\ sh_flags r = sh_flags s' /\ sh_addr r = sh_addr s' /\
      sh_offset r = sh_offset s' /\ sh_size r = sh_size s' /\ sh_link r = sh_link s' /\ sh_info r = sh_info s' /\
      sh_addralign r = sh_addralign s' /\ sh_entsize r = sh_entsize s' /\ s_index r = idx.
Proof. exact section_load_reports. Qed.
Print Assumptions C02_section_header_reported.

(* the whole section header table: [secs] encoded entry after entry (entry size es >= the header size, any filler
   between them) at e_shoff of the stream; the loop of load_sections reports, for every index, a section with exactly
   the encoded header fields, in table order, and leaves the stream good *)
Theorem C02_section_header_table_reported :
  forall junk enc c shoff es (secs : list section) fuel st i racc allocs,
    is_fail st = false -> st_inv st -> shoff < 2 ^ 62 -> shdr_size c <= es ->
    shoff + (i + lenN secs) * es < 2 ^ 62 -> shoff + (i + lenN secs) * es <= lenN (is_content st) ->
    Forall (fun s => s_cls s = c /\ shdr_wf s) secs ->
    (forall k s, nth_optN secs k = Some s -> sliceN (is_content st) (shoff + (i + k) * es) (shdr_size c) = shdr_bytes enc s) ->
    (length secs <= fuel)%nat ->
    exists st' loaded,
      load_sections_loop junk fuel st [] c enc shoff es i (i + lenN secs) true racc allocs = Ok (st', rev loaded ++ racc, allocs) /\
      is_fail st' = false /\ st_inv st' /\ is_content st' = is_content st /\
      Forall2 same_hdr secs loaded /\
      Forall (fun r => s_data r = None /\ s_stream_size r = lenN (is_content st) /\ s_cls r = c) loaded /\
      (forall k r, nth_optN loaded k = Some r -> s_index r = wrap16 (i + k)).
Proof. exact load_sections_loop_reports. Qed.
Print Assumptions C02_section_header_table_reported.

(* program headers: decoding the gABI encoding gives back every field *)
Theorem C02_program_header_codec :
  forall enc g0 g ss lz,
    g_cls g0 = g_cls g -> phdr_wf g ->
    let r := seg_of_raw enc g0 (phdr_bytes enc g) ss lz in
    p_type r = p_type g /\ p_flags r = p_flags g /\ p_offset r = p_offset g /\ p_vaddr r = p_vaddr g /\
    p_paddr r = p_paddr g /\ p_filesz r = p_filesz g /\ p_memsz r = p_memsz g /\ p_align r = p_align g.
Proof. exact phdr_roundtrip. Qed.
Print Assumptions C02_program_header_codec.

(* a program header table entry, through segment::load: the entry at [pos] of the stream holding the gABI encoding of a
   segment's fields (either class, either byte order, every field over its full width) is reported with exactly
   those fields *)
Theorem C02_program_header_entry_reported :
  forall st enc c (pos : N) g',
    is_fail st = false -> st_inv st -> pos < 2 ^ 63 -> pos + phdr_size c <= lenN (is_content st) ->
    g_cls g' = c -> phdr_wf g' ->
    sliceN (is_content st) pos (phdr_size c) = phdr_bytes enc g' ->
    exists st' r,
      segment_load st [] enc (new_segment c) (Z.of_N pos) true = Ok (st', r, true, []) /\
      is_fail st' = false /\ st_inv st' /\ is_content st' = is_content st /\
      same_phdr g' r /\ g_sections r = [] /\ g_cls r = c /\ g_data r = None.
Proof. exact segment_load_reports_lazy. Qed.
Print Assumptions C02_program_header_entry_reported.

(* ... and through the loop of load_segments (one entry): reported with those fields and with exactly the members
   the membership rule (C02_membership_rule) selects among the sections loaded before *)
Theorem C02_program_header_table_of_one_entry_reported :
  forall st enc c (phoff es : N) secs g' f,
    is_fail st = false -> st_inv st -> phoff < 2 ^ 62 -> phoff + phdr_size c <= lenN (is_content st) ->
    g_cls g' = c -> phdr_wf g' ->
    sliceN (is_content st) phoff (phdr_size c) = phdr_bytes enc g' ->
    exists st' r,
      load_segments_loop (S f) st [] secs enc c phoff es 0 1 true [] [] = Ok (st', [r], true, []) /\
      is_fail st' = false /\ is_content st' = is_content st /\
      same_phdr g' r /\ g_sections r = map wrap16 (seg_members g' secs) /\ g_cls r = c /\ g_index r = 0.
Proof. exact load_segments_loop_single. Qed.
Print Assumptions C02_program_header_table_of_one_entry_reported.

(* ... and the whole program header table, any number of entries (entry size es >= the record size): every segment
   is reported with the encoded fields and exactly the members the rule selects among the sections loaded before,
   in table order, and the loop ends "good" *)
Theorem C02_program_header_table_reported :
  forall enc c phoff es secs (segs : list segment) fuel st i racc allocs,
    is_fail st = false -> st_inv st -> phoff < 2 ^ 62 -> phdr_size c <= es ->
    phoff + (i + lenN segs) * es < 2 ^ 62 ->
    Forall (fun g => g_cls g = c /\ phdr_wf g) segs ->
    (forall k g, nth_optN segs k = Some g -> phoff + (i + k) * es + phdr_size c <= lenN (is_content st) /\
                                             sliceN (is_content st) (phoff + (i + k) * es) (phdr_size c) = phdr_bytes enc g) ->
    (length segs <= fuel)%nat ->
    exists st' loaded allocs',
      load_segments_loop fuel st [] secs enc c phoff es i (i + lenN segs) true racc allocs = Ok (st', rev loaded ++ racc, true, allocs') /\
      Forall2 (seg_reported secs) segs loaded.
Proof. exact load_segments_loop_reports. Qed.
Print Assumptions C02_program_header_table_reported.

(* names *)
Theorem C02_name_is_cstring_at_offset :
  forall (b : bytes) size idx nm,
    size <= lenN b -> get_string_raw (Some b) size idx = Ok (Some nm) ->
    idx + lenN nm < size /\ nul_free nm /\ sliceN (firstnN b size) idx (lenN nm + 1) = nm ++ [0].
Proof.
  intros b size idx nm Hs H. rewrite get_string_contents in H by exact Hs. injection H as H.
  destruct (gs_c_sound _ _ _ H) as (A & B & C). rewrite lenN_firstnN in A. split; [lia|]. auto.
Qed.
Print Assumptions C02_name_is_cstring_at_offset.

(* data = the file's byte range (sections; segments alike in Properties_C17) *)
Theorem C02_section_data_is_file_range :
  forall junk st t s,
    is_fail st = false -> st_inv st -> sec_loadable t (is_content st) s ->
    exists st1 s1,
      sec_load_data junk (Some st) t s = Ok (Some st1, s1, true, [sh_size s + 1]) /\
      s_data s1 = Some (sliceN (is_content st) (sec_file_off t s) (sh_size s) ++ [0]).
Proof.
  intros junk st t s Hf Hi Hl. destruct (sec_load_data_complete junk st t s Hf Hi Hl) as (st1 & s1 & E & D & _). eauto.
Qed.
Print Assumptions C02_section_data_is_file_range.

(* membership: a section is reported in a segment exactly when the rule of
   elfio.hpp:660-686 holds, and that rule is "lies wholly inside" *)
Theorem C02_membership_rule :
  forall g secs, seg_members g secs = map s_index (filter (member_spec g) secs).
Proof. exact seg_members_exact. Qed.
Print Assumptions C02_membership_rule.

Theorem C02_inside_means_wholly_inside :
  forall b sz sb se, b + sz < 2 ^ 64 ->
    (is_sect_in_seg b sz sb se = true <-> (sb <= b /\ b + sz <= se /\ b < se)).
Proof. exact is_sect_in_seg_spec. Qed.
Print Assumptions C02_inside_means_wholly_inside.

(* non-vacuity *)
Definition ex_h : ehdr := hdr_set (hdr_set (new_header C64 MSB) HEntry 18446744073709551615) HMachine 65535.
Example C02_example :
  ehdr_wf ex_h /\ nthN (e_ident ex_h) 5 0 = enc_byte (e_enc ex_h) /\
  (exists el' al, load (fun _ => 0) (empty_elfio false) StringBuf (ehdr_bytes ex_h ++ [1; 2; 3]) true = Ok (el', true, al) /\
                  el_hdr el' = Some ex_h).
Proof.
  split; [unfold ehdr_wf, fw; vm_compute; repeat split; reflexivity|]. split; [reflexivity|].
  vm_compute. eexists _, _. split; reflexivity.
Qed.
