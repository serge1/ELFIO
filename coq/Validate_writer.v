(* Validate_writer.v — C20: validate() has no complaint about what the writer
   lays out for an object without segments. *)
From ElfioV Require Import Bytes Mem Stream SectionData Elfio Table Layout Writer Validate_proofs Layout_proofs.
From Coq Require Import ZifyBool ZifyN ZifyNat.
Local Open Scope N_scope.


(* in a chain, two sections that both occupy file space (in validate()'s sense)
   and carry their data are not reported as overlapping *)
Theorem chain_pairs_not_reported secs lo hi i j a b :
  chain secs lo hi -> hi < 2 ^ 64 ->
  (forall s, In s secs -> sh_type s = SHT_NULL -> sh_size s = 0) ->
  (forall s, In s secs -> s_index s = 0 -> sh_size s = 0 \/ sh_type s = SHT_NOBITS \/ sh_offset s = 0) ->
  i < j -> nth_optN secs i = Some a -> nth_optN secs j = Some b ->
  sections_overlap_reported a b = false.
Proof.
  intros Hch Hhi Hnull Hzero Hij Ha Hb.
  destruct (nth_optN_split2 secs i j a b Hij Ha Hb) as (pre & mid & post & E).
  assert (Ia : In a secs) by (rewrite E; apply in_or_app; right; now left).
  assert (Ib : In b secs) by (rewrite E; apply in_or_app; right; right; apply in_or_app; right; now left).
  destruct (sections_overlap_reported a b) eqn:Er; [|reflexivity]. exfalso.
  destruct (reported_occupies a b Er) as [(Ta & Sa & Oa) (Tb & Sb & Ob)].
  (* both have a non-zero index: index 0 would contradict "occupies" *)
  assert (Hia : s_index a <> 0).
  { intro E0. destruct (Hzero a Ia E0) as [H|[H|H]]; [lia|contradiction|lia]. }
  assert (Hib : s_index b <> 0).
  { intro E0. destruct (Hzero b Ib E0) as [H|[H|H]]; [lia|contradiction|lia]. }
  pose proof (chain_disjoint secs lo hi pre a mid b post Hch E Hia Hib) as Hd.
  destruct (chain_member secs lo hi a Hch Ia Hia) as (_ & Ea & _).
  destruct (chain_member secs lo hi b Hch Ib Hib) as (_ & Eb & _).
  assert (Ca : csize a = sh_size a).
  { unfold csize, carries. apply N.eqb_neq in Ta. rewrite Ta. cbn [negb andb].
    destruct (N.eqb_spec (sh_type a) SHT_NULL) as [En|_]; [rewrite (Hnull a Ia En) in Sa; lia|reflexivity]. }
  assert (Cb : csize b = sh_size b).
  { unfold csize, carries. apply N.eqb_neq in Tb. rewrite Tb. cbn [negb andb].
    destruct (N.eqb_spec (sh_type b) SHT_NULL) as [En|_]; [rewrite (Hnull b Ib En) in Sb; lia|reflexivity]. }
  rewrite Ca in *. rewrite Cb in *.
  assert (Fa : in_file a) by (unfold in_file; lia). assert (Fb : in_file b) by (unfold in_file; lia).
  apply (overlap_reported_iff a b (conj Ta (conj Sa Oa)) (conj Tb (conj Sb Ob)) Fa Fb) in Er.
  destruct Er as (x & [X1 X2] & [X3 X4]). lia.
Qed.

Theorem validate_accepts_noseg_layout el h0 bound :
  el_hdr el = Some h0 -> el_segs el = [] ->
  bound <= 2 ^ 63 -> Forall (fun s => bound <= 2 ^ xw (s_cls s)) (el_secs el) ->
  e_ehsize h0 + budget (el_secs el) + 16 < bound ->
  lenN (el_secs el) < 2 ^ 16 ->
  (forall s, In s (el_secs el) -> sh_type s = SHT_NULL -> sh_size s = 0) ->
  (forall s, In s (el_secs el) -> s_index s = 0 -> sh_size s = 0 \/ sh_type s = SHT_NOBITS) ->
  exists el', layout el = Ok (el', true) /\ validate el' = [].
Proof.
  intros Hh Hs Hb Hc Hbud Hn Hnull Hzero.
  destruct (layout_noseg el h0 bound Hh Hs ltac:(lia) Hc Hbud) as (el' & secs' & h' & pos' & E & Es & Eg & _ & K & Ch & _ & Le & _).
  exists el'. split; [exact E|]. subst secs'.
  assert (Hlen : lenN (el_secs el') = lenN (el_secs el)) by (eapply Forall2_lenN; eauto).
  (* attributes other than the offset are kept, so the side conditions carry over *)
  assert (Hkeep : forall s', In s' (el_secs el') -> exists s, In s (el_secs el) /\ sh_type s' = sh_type s /\ sh_size s' = sh_size s /\ s_index s' = s_index s).
  { intros s' Hin. destruct (Forall2_In_r _ _ _ K s' Hin) as (s & Hsin & Hk). destruct (keeps_attrs _ _ Hk) as (T & Z & I & _). eauto 6. }
  apply validate_clean.
  - rewrite Hlen. exact Hn.
  - rewrite Eg. cbn. lia.
  - intros i j a b Hij Ha Hb'.
    apply (chain_pairs_not_reported (el_secs el') (e_ehsize h0) pos' i j a b Ch); try assumption; try lia.
    + intros s Hin Ht. destruct (Hkeep s Hin) as (s0 & H0 & T & Z & _). rewrite Z. apply (Hnull s0 H0). congruence.
    + intros s Hin Hi. destruct (Hkeep s Hin) as (s0 & H0 & T & Z & I0).
      destruct (Hzero s0 H0 ltac:(congruence)) as [H|H]; [left; congruence|right; left; congruence].
  - rewrite Eg. intros g sec [].
Qed.
