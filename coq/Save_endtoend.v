(* Save_endtoend.v — C03/C16: the function save() itself, from the object as the user built it (or loaded and
   requested it) to the bytes in the stream: once the data requests are no-ops and the layout has succeeded, save()
   executes the plan of writes on the stream and reports whether the stream took it. *)
From ElfioV Require Import Bytes Mem Stream Stream_proofs SectionData Elfio Loader Layout Writer Ostream_proofs
     Layout_proofs Writer_proofs ByName_proofs Save_twice Segment_proofs Oneseg_proofs Oneseg_writer.
Local Open Scope N_scope.

Section EndToEnd.
  Variable junk : N -> N.

  (* a section save() can write as it is: offset representable, no pending load, data buffer covering the size *)
  Definition writable (s : section) : Prop :=
    sh_offset s < 2 ^ xw (s_cls s) /\ quiet s /\
    (forall b, s_data s = Some b -> sh_size s <= lenN b).

  Lemma writable_quiet s : writable s -> quiet s.
  Proof. intros (_ & Q & _). exact Q. Qed.

  Lemma writable_plannable s : writable s -> plannable s.
  Proof. intros (Ho & Q & D). split; [exact Ho|]. intros _ b Hd. split; [exact Q|exact (D b Hd)]. Qed.

  Lemma relaid_writable s s' : relaid s s' -> writable s -> writable s'.
  Proof.
    intros [->|[(o & ->)|(a & o & ->)]] W; [exact W| |]; destruct W as (Ho & Q & D); (split; [|split; [exact Q|exact D]]);
      cbn [sh_offset s_cls with_offset with_addr]; apply wrap_lt.
  Qed.

  Lemma layout_keeps_env el el' ok : layout el = Ok (el', ok) ->
    el_xlat el' = el_xlat el /\ el_compr el' = el_compr el /\ el_stream el' = el_stream el.
  Proof.
    unfold layout. destruct (el_hdr el) as [h0|]; [|intros H; injection H as <- _; auto].
    destruct (map_res _ _) as [segs1|]; cbn [bind]; [|discriminate].
    destruct (get_ordered_segments segs1) as [order|]; cbn [bind]; [|discriminate].
    destruct (layout_segments _ _ _ _ _ _) as [[[[segs2 secs2] pos1] ok1]|]; cbn [bind]; [|discriminate].
    destruct ok1.
    - destruct (layout_free_sections _ _ _ _ _) as [secs3 pos2]. intros H; injection H as <- _; auto.
    - intros H; injection H as <- _; auto.
  Qed.

  (* what save() returns once the layout has given el1 and the plan is known: the ELF header w0, the writes ps for
     the sections, the program header records extra, with the checks save() makes on the way *)
  Definition save_verdict (el1 : elfio) (sc : ostream) (w0 : N * bytes) (ps extra : list (N * bytes))
    : res (elfio * ostream * bool) :=
    let os1 := exec_write sc w0 in
    if os_bad os1 then Ok (el1, os1, false)
    else let os2 := exec_plan os1 ps in
         if os_abort os2 then Fault Abort
         else if os_bad os2 then Ok (el1, os2, false)
         else let os3 := exec_plan os2 extra in
              if os_abort os3 then Fault Abort else Ok (el1, os3, negb (os_bad os3)).

  Lemma save_as_plan el0 h0 el1 h' c :
    el_hdr el0 = Some h0 -> el_xlat el0 = [] -> el_compr el0 = false ->
    Forall writable (el_secs el0) -> Forall (seg_stable (el_stream el0) (el_xlat el0)) (el_segs el0) ->
    layout el0 = Ok (el1, true) -> Forall2 relaid (el_secs el0) (el_secs el1) -> el_hdr el1 = Some h' -> e_shoff h' < 2 ^ 63 ->
    save junk el0 (new_ostream c) =
      save_verdict el1 (new_ostream c) (0, ehdr_bytes h')
        (flat_map (sec_writes (e_enc h') (e_shoff h') (e_shentsize h')) (el_secs el1))
        (segments_plan (e_enc h') h' (el_segs el1)).
  Proof.
    intros Hh Hx Hcm W S0 L1 HR Eh Hso. destruct (layout_keeps_env _ _ _ L1) as (X1 & X2 & _).
    assert (Q0 : Forall quiet (el_secs el0)) by exact (Forall_impl _ writable_quiet W).
    assert (W1 : Forall plannable (el_secs el1)) by exact (Forall_impl _ writable_plannable (Forall2_Forall relaid_writable HR W)).
    unfold save. change (os_bad (new_ostream c)) with false. cbn iota. rewrite Hh.
    rewrite (force_sections_quiet junk _ _ _ [] Q0). cbn [bind rev_append].
    rewrite (force_segments_stable _ _ _ [] S0). cbn [bind rev_append].
    rewrite with_parts_id, L1. cbn [bind negb]. rewrite Eh, X1, Hx.
    change (save_header h' [] (new_ostream c))
      with (exec_write (new_ostream c) (0, ehdr_bytes h'), negb (os_bad (exec_write (new_ostream c) (0, ehdr_bytes h')))).
    unfold save_verdict. destruct (os_bad (exec_write (new_ostream c) (0, ehdr_bytes h'))); cbn [negb]; [reflexivity|].
    rewrite X2, Hcm, (sections_plan_plannable junk (e_enc h') h' [] (el_stream el1) (el_secs el1) [] [] Hso W1).
    cbn [bind rev_append app].
    now rewrite with_secs_stream_id.
  Qed.

  (* the checks on the way never fire unless the last one does *)
  Lemma save_verdict_good el1 sc w0 ps extra :
    os_bad (exec_plan sc ((w0 :: ps) ++ extra)) = false -> os_abort (exec_plan sc ((w0 :: ps) ++ extra)) = false ->
    save_verdict el1 sc w0 ps extra = Ok (el1, exec_plan sc ((w0 :: ps) ++ extra), true).
  Proof.
    rewrite <- exec_plan_app. change (exec_plan sc (w0 :: ps)) with (exec_plan (exec_write sc w0) ps).
    unfold save_verdict. intros B A.
    destruct (os_bad (exec_write sc w0)) eqn:B1.
    { rewrite exec_plan_app, (bad_sticky_plan _ _ B1) in B. discriminate. }
    destruct (os_abort (exec_plan (exec_write sc w0) ps)) eqn:A2; [rewrite (abort_sticky_plan _ _ A2) in A; congruence|].
    destruct (os_bad (exec_plan (exec_write sc w0) ps)) eqn:B2; [rewrite (bad_sticky_plan _ _ B2) in B; discriminate|].
    now rewrite A, B.
  Qed.

  Lemma save_verdict_bad el1 sc w0 ps extra :
    os_bad (exec_plan sc ((w0 :: ps) ++ extra)) = true -> forall el2 os, save_verdict el1 sc w0 ps extra <> Ok (el2, os, true).
  Proof.
    rewrite <- exec_plan_app. change (exec_plan sc (w0 :: ps)) with (exec_plan (exec_write sc w0) ps).
    unfold save_verdict. intros B el2 os.
    destruct (os_bad (exec_write sc w0)); [discriminate|]. destruct (os_abort (exec_plan (exec_write sc w0) ps)); [discriminate|].
    destruct (os_bad (exec_plan (exec_write sc w0) ps)); [discriminate|]. destruct (os_abort _); [discriminate|].
    rewrite B. discriminate.
  Qed.

  Lemma save_verdict_unbounded el1 w0 ps extra : plan_small 0 ((w0 :: ps) ++ extra) ->
    save_verdict el1 (new_ostream None) w0 ps extra = Ok (el1, exec_plan (new_ostream None) ((w0 :: ps) ++ extra), true).
  Proof.
    intros Hsmall. destruct (exec_plan_flat _ _ _ _ new_ostream_flat Hsmall) as (_ & (G1 & G2 & _) & _).
    now apply save_verdict_good.
  Qed.

  (* run on a sink that accepts k bytes, where an unlimited sink would end up as full: true, leaving el1 and the
     complete file, when the file fits; never true when it does not *)
  Definition capped (run : ostream -> res (elfio * ostream * bool)) (el1 : elfio) (full : ostream) (k : N) : Prop :=
    (os_len full <= k -> exists os, run (new_ostream (Some k)) = Ok (el1, os, true) /\ os_bytes os = os_bytes full) /\
    (k < os_len full -> forall el2 os, run (new_ostream (Some k)) <> Ok (el2, os, true)).

  Lemma save_verdict_capped el1 k w0 ps extra : plan_small 0 ((w0 :: ps) ++ extra) ->
    capped (fun sc => save_verdict el1 sc w0 ps extra) el1 (exec_plan (new_ostream None) ((w0 :: ps) ++ extra)) k.
  Proof.
    intros Hsmall.
    destruct (exec_plan_tracks k _ _ _ (in_step_tracks _ _ _ (in_step_new k)) (plan_small_no_huge _ _ _ _ new_ostream_flat Hsmall))
      as [SIM OVF]. split.
    - intros Hfit. destruct (in_step_good _ _ _ (SIM Hfit)) as [B1 A1].
      eexists. split; [now apply save_verdict_good|exact (in_step_bytes _ _ _ (SIM Hfit))].
    - intros Hover. destruct (OVF Hover) as (B1 & _). now apply save_verdict_bad.
  Qed.

  Section Noseg.
    Variables (el0 : elfio) (h0 : ehdr) (bound : N).
    Hypothesis Hh : el_hdr el0 = Some h0.
    Hypothesis Hs : el_segs el0 = [].
    Hypothesis Hx : el_xlat el0 = [].
    Hypothesis Hcm : el_compr el0 = false.
    Hypothesis W : Forall writable (el_secs el0).
    Hypothesis Hb : bound <= 2 ^ 63.
    Hypothesis Hc : Forall (fun s => bound <= 2 ^ xw (s_cls s)) (el_secs el0).
    Hypothesis Hbud : e_ehsize h0 + budget (el_secs el0) + 16 < bound.

    Lemma save_noseg_as_plan : exists el1 h' pos',
      noseg_laid el0 h0 el1 h' pos' /\
      forall c, save junk el0 (new_ostream c) =
                save_verdict el1 (new_ostream c) (0, ehdr_bytes h')
                  (flat_map (sec_writes (e_enc h') (e_shoff h') (e_shentsize h')) (el_secs el1)) [].
    Proof.
      destruct (layout_noseg_laid el0 h0 bound Hh Hs ltac:(lia) Hc Hbud) as (el1 & h' & pos' & L).
      exists el1, h', pos'. split; [exact L|]. intros c.
      rewrite (save_as_plan el0 h0 el1 h' c Hh Hx Hcm W);
        [now rewrite (nl_segs L)| |exact (nl_layout L)|exact (Forall2_impl keeps_relaid (nl_keeps L))|exact (nl_hdr L)|].
      - rewrite Hs. constructor.
      - pose proof (hdr_laid_shoff_le _ _ _ _ _ _ (nl_fields L)). pose proof (nl_end L). lia.
    Qed.

    Theorem save_noseg_saved_file :
      bound <= 2 ^ xw (e_cls h0) -> writes_ok h0 (el_secs el0) ->
      exists el1 h',
        layout el0 = Ok (el1, true) /\ el_hdr el1 = Some h' /\
        (plan_small 0 (noseg_plan h' (el_secs el1)) ->
         exists os,
           save junk el0 (new_ostream None) = Ok (el1, os, true) /\ file_holds (os_bytes os) h' (el_secs el1)).
    Proof.
      intros Hbh Hok.
      destruct save_noseg_as_plan as (el1 & h' & pos' & L & SV).
      pose proof (nl_fields L) as HL. pose proof (Forall2_impl keeps_relaid (nl_keeps L)) as HR.
      exists el1, h'. split; [exact (nl_layout L)|]. split; [exact (nl_hdr L)|]. intros Hsmall.
      exists (exec_plan (new_ostream None) (noseg_plan h' (el_secs el1))). split.
      { rewrite SV, <- (app_nil_r (noseg_plan h' (el_secs el1))). apply save_verdict_unbounded. now rewrite app_nil_r. }
      pose proof (pad16_bounds pos'). pose proof (nl_end L).
      apply (noseg_file_contents h' (el_secs el1) pos'); [|exact (writes_ok_relaid _ _ _ _ _ _ _ _ HL HR Hok)| | |assumption].
      - rewrite (hl_ehsize HL). exact (nl_chain L).
      - rewrite (hdr_laid_shoff _ _ _ _ _ _ HL) by lia. lia.
      - apply (relaid_covered _ _ HR). intros s b Hin Hd. rewrite Forall_forall in W. now apply (W s Hin).
    Qed.

    Theorem save_noseg_capped k :
      exists el1 h',
        layout el0 = Ok (el1, true) /\ el_hdr el1 = Some h' /\
        (plan_small 0 (noseg_plan h' (el_secs el1)) ->
         capped (save junk el0) el1 (exec_plan (new_ostream None) (noseg_plan h' (el_secs el1))) k).
    Proof.
      destruct save_noseg_as_plan as (el1 & h' & pos' & L & SV).
      exists el1, h'. split; [exact (nl_layout L)|]. split; [exact (nl_hdr L)|].
      unfold capped. rewrite SV, <- (app_nil_r (noseg_plan h' (el_secs el1))). apply save_verdict_capped.
    Qed.
  End Noseg.

  (* the same for objects with one segment of automatically addressed members, whose segment has been asked for
     its data once *)
  Section Oneseg.
    Variables (el : elfio) (h0 : ehdr) (g : segment) (bound : N) (ms : list section).
    Hypothesis O : oneseg el h0 g bound ms.
    Hypothesis F : oneseg_file el h0 g bound ms.
    Hypothesis Hx : el_xlat el = [].
    Hypothesis Hcm : el_compr el = false.
    Hypothesis W : Forall writable (el_secs el).
    Hypothesis Hgl : g_loaded g = true.

    Lemma save_oneseg_as_plan : exists el' h' g' ss pos1 pos2,
      laid el h0 g ms el' h' g' ss pos1 pos2 /\
      forall c, save junk el (new_ostream c) =
                save_verdict el' (new_ostream c) (0, ehdr_bytes h')
                  (flat_map (sec_writes (e_enc h') (e_shoff h') (e_shentsize h')) (el_secs el'))
                  (segments_plan (e_enc h') h' [g']).
    Proof.
      destruct (oneseg_laid el h0 g bound ms O) as (el' & h' & g' & ss & pos1 & pos2 & L).
      exists el', h', g', ss, pos1, pos2. split; [exact L|]. intros c.
      rewrite (save_as_plan el h0 el' h' c (og_hdr O) Hx Hcm W);
        [now rewrite (ld_segs L)| |exact (ld_layout L)|exact (ld_relaid L)|exact (ld_hdr L)|].
      - rewrite (og_segs O). constructor; [|constructor]. unfold seg_stable, seg_get_data. now rewrite Hgl.
      - pose proof (hdr_laid_shoff_le _ _ _ _ _ _ (ld_fields L)). pose proof (laid_pos2 O L). pose proof (of_bound F). lia.
    Qed.

    Theorem save_oneseg_end_to_end :
      exists el' h' g',
        layout el = Ok (el', true) /\ el_hdr el' = Some h' /\ el_segs el' = [g'] /\
        let plan := oneseg_plan h' (el_secs el') (segments_plan (e_enc h') h' [g']) in
        (plan_small 0 plan ->
         exists os,
           save junk el (new_ostream None) = Ok (el', os, true) /\
           file_holds (os_bytes os) h' (el_secs el') /\
           sliceN (os_bytes os) (e_phoff h') (phdr_size (g_cls g')) = phdr_bytes (e_enc h') g').
    Proof.
      destruct save_oneseg_as_plan as (el' & h' & g' & ss & pos1 & pos2 & L & SV).
      exists el', h', g'. split; [exact (ld_layout L)|]. split; [exact (ld_hdr L)|]. split; [exact (ld_segs L)|]. cbv zeta. intros Hsmall.
      eexists. split; [rewrite SV; now apply save_verdict_unbounded|].
      refine (proj2 (laid_file O L F _) Hsmall). intros s b Hin Hd. rewrite Forall_forall in W. now apply (W s Hin).
    Qed.

    Theorem save_oneseg_capped k :
      exists el' h' g',
        layout el = Ok (el', true) /\ el_hdr el' = Some h' /\ el_segs el' = [g'] /\
        let plan := oneseg_plan h' (el_secs el') (segments_plan (e_enc h') h' [g']) in
        (plan_small 0 plan -> capped (save junk el) el' (exec_plan (new_ostream None) plan) k).
    Proof.
      destruct save_oneseg_as_plan as (el' & h' & g' & ss & pos1 & pos2 & L & SV).
      exists el', h', g'. split; [exact (ld_layout L)|]. split; [exact (ld_hdr L)|]. split; [exact (ld_segs L)|].
      cbv zeta. unfold capped. rewrite SV. apply save_verdict_capped.
    Qed.
  End Oneseg.
End EndToEnd.
