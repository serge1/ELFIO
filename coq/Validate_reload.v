(* Validate_reload.v — C20: validate() reads nothing but the header fields of the sections (type, size, offset,
   address, index) and the segments (type, offset, file size, address, index); so what it says about an object
   equals what it says about any object reporting the same fields - in particular about the object a load of the
   saved file yields. *)
From ElfioV Require Import Bytes Mem Stream SectionData Elfio Loader Layout Writer Reader_proofs Layout_proofs
     Reload_oneseg.
Local Open Scope N_scope.

Definition sec_alike (s x : section) : Prop := same_hdr s x /\ s_index x = s_index s.
Definition seg_alike (g r : segment) : Prop := same_phdr g r /\ g_index r = g_index g.

Lemma in_section_alike off s x : sec_alike s x -> is_offset_in_section off x = is_offset_in_section off s.
Proof. intros [(_ & _ & _ & _ & A5 & A6 & _) _]. unfold is_offset_in_section. now rewrite A5, A6. Qed.

Lemma overlap_alike a b a' b' : sec_alike a a' -> sec_alike b b' ->
  sections_overlap_reported a' b' = sections_overlap_reported a b.
Proof.
  intros Ha Hb. unfold sections_overlap_reported.
  rewrite !(in_section_alike _ _ _ Ha), !(in_section_alike _ _ _ Hb).
  destruct Ha as [(_ & A2 & _ & _ & A5 & A6 & _) _]. destruct Hb as [(_ & B2 & _ & _ & B5 & B6 & _) _].
  now rewrite A2, A5, A6, B2, B5, B6.
Qed.

Lemma overlap_inner_alike a a' : sec_alike a a' -> forall l l', Forall2 sec_alike l l' ->
  forall i j, overlap_inner a' i j l' = overlap_inner a i j l.
Proof.
  intros Ha l l' HF. induction HF as [|b b' t t' Hb HF IH]; intros i j; cbn [overlap_inner]; [reflexivity|].
  now rewrite (overlap_alike _ _ _ _ Ha Hb), IH.
Qed.

Lemma overlap_pairs_alike : forall l l', Forall2 sec_alike l l' -> forall i, overlap_pairs i l' = overlap_pairs i l.
Proof.
  intros l l' HF. induction HF as [|a a' t t' Ha HF IH]; intro i; cbn [overlap_pairs]; [reflexivity|].
  now rewrite (overlap_inner_alike _ _ Ha _ _ HF), IH.
Qed.

Lemma find_prog_alike off : forall l l', Forall2 sec_alike l l' ->
  match find_prog_section l off, find_prog_section l' off with
  | Some s, Some x => sec_alike s x
  | None, None => True
  | _, _ => False
  end.
Proof.
  intros l l' HF. induction HF as [|a a' t t' Ha HF IH]; cbn [find_prog_section]; [exact I|].
  rewrite (in_section_alike _ _ _ Ha). destruct Ha as [Hh Hi]. pose proof Hh as (_ & A2 & _). rewrite A2.
  destruct ((sh_type a =? SHT_PROGBITS) && is_offset_in_section off a); [split; assumption|exact IH].
Qed.

Lemma seg_conflicts_alike secs secs' : Forall2 sec_alike secs secs' -> forall segs segs', Forall2 seg_alike segs segs' ->
  seg_conflicts secs' segs' = seg_conflicts secs segs.
Proof.
  intros HS segs segs' HG. unfold seg_conflicts. f_equal.
  induction HG as [|g r t t' [(G1 & G2 & G3 & G4 & G5 & G6 & G7 & G8) GI] HG IH]; cbn [map]; [reflexivity|].
  rewrite IH. f_equal. rewrite G1, G3, G4, G6, GI.
  pose proof (find_prog_alike (p_offset g) _ _ HS) as Hf.
  destruct (find_prog_section secs (p_offset g)) as [s|]; destruct (find_prog_section secs' (p_offset g)) as [x|]; try contradiction; [|reflexivity].
  destruct Hf as [(_ & _ & _ & A4 & A5 & _) Ai]. unfold get_virtual_addr. now rewrite A4, A5, Ai.
Qed.

Lemma Forall2_firstnN {A B} (R : A -> B -> Prop) l l' : Forall2 R l l' -> forall n, Forall2 R (firstnN l n) (firstnN l' n).
Proof.
  induction 1 as [|a b t t' Hab HF IH]; intro n; cbn [firstnN]; [constructor|].
  destruct (n =? 0); constructor; auto.
Qed.

Theorem validate_reads_headers_only el1 el2 :
  Forall2 sec_alike (el_secs el1) (el_secs el2) -> Forall2 seg_alike (el_segs el1) (el_segs el2) ->
  validate el2 = validate el1.
Proof.
  intros HS HG. unfold validate.
  rewrite (Forall2_lenN _ _ _ HS), (Forall2_lenN _ _ _ HG).
  rewrite (overlap_pairs_alike _ _ (Forall2_firstnN _ _ _ HS _)).
  now rewrite (seg_conflicts_alike _ _ HS _ _ (Forall2_firstnN _ _ _ HG _)).
Qed.

(* the object a load of the file saved from a one-segment object yields is accepted by validate() *)
From ElfioV Require Import Codec_proofs Ostream_proofs Segment_proofs Writer_proofs Oneseg_proofs Oneseg_writer Oneseg_members
     Validate_oneseg.
From Coq Require Import Sorted.

Theorem validate_accepts_reloaded_oneseg junk el h0 g bound ms el' h' g' ss pos1 pos2 :
  oneseg el h0 g bound ms -> oneseg_file el h0 g bound ms -> laid el h0 g ms el' h' g' ss pos1 pos2 ->
  let idxs := g_sections g in
  let secs := el_secs el in
  (forall s b, In s secs -> s_data s = Some b -> sh_size s <= lenN b) ->
  bound <= 2 ^ 62 -> e_shentsize h0 = shdr_size (e_cls h0) ->
  p_type g <> PT_TLS -> Forall (fun s => sh_size s <> 0) ms ->
  (forall j s, ~ In j idxs -> nth_optN secs j = Some s ->
     is_tls s \/ (is_alloc s /\ sh_addr s < p_vaddr g) \/
     (~ is_alloc s /\ (s_index s = 0 -> sh_offset s < e_ehsize h0 + e_phentsize h0))) ->
  secs <> [] ->
  (forall s, In s secs -> sh_type s = SHT_NULL -> sh_size s = 0) ->
  (forall s, In s secs -> s_index s = 0 -> sh_size s = 0 \/ sh_type s = SHT_NOBITS) ->
  validate el' = [] /\
  let plan := oneseg_plan h' (el_secs el') (segments_plan (e_enc h') h' [g']) in
  (plan_small 0 plan -> phdr_wf g' ->
   (forall s, In s (el_secs el') -> s_cls s = e_cls h' /\ shdr_wf s) ->
   p_vaddr g + p_memsz g' < 2 ^ 64 -> StronglySorted N.lt idxs ->
   forall k f,
   let file := os_bytes (exec_plan (new_ostream None) plan) in
   exists st1 loaded st2 r,
     load_sections_loop junk (length secs) (open_istream k file) [] (e_cls h') (e_enc h') (e_shoff h') (e_shentsize h')
                        0 (e_shnum h') true [] [] = Ok (st1, rev loaded, []) /\
     load_segments_loop (S f) st1 [] loaded (e_enc h') (g_cls g') (e_phoff h') (e_phentsize h') 0 (e_phnum h') true [] [] =
       Ok (st2, [r], true, []) /\
     forall elr, el_secs elr = loaded -> el_segs elr = [r] -> validate elr = []).
Proof.
  cbv zeta. intros O F L Hdata Hb62 Hes_eq Htls Hnz Hfree Hsne Hvn Hvz.
  pose proof (laid_validate O L Hvn Hvz) as V. split; [exact V|].
  intros Hsmall Hpwf Hswf Hr1 Hsorted k f.
  destruct (laid_reload junk O L F Hdata Hb62 Hes_eq Htls Hnz Hfree Hsne Hsmall Hpwf Hswf Hr1 Hsorted k f)
    as (st1 & loaded & st2 & r & E1 & H2 & E2 & SP & _ & GI).
  exists st1, loaded, st2, r. split; [exact E1|]. split; [exact E2|].
  intros elr Es Er. rewrite <- V. apply validate_reads_headers_only.
  - rewrite Es. exact H2.
  - rewrite Er, (ld_segs L). constructor; [split; assumption|constructor].
Qed.
