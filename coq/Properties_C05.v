(* Properties_C05.v — C05: load, edit, save, load preserves everything the user
   did not touch.  Proved at the level of the pieces a file is made of: what a
   save writes for a section (header record, data) is what a load of the saved
   bytes reports; the layout step changes no attribute but the offset (objects
   without segments; objects with one segment of automatically addressed members:
   C05_one_segment_survives_reload).  Preservation for whole loaded images with
   several segments (addresses, memory images) is decided by the correspondence run: partial. *)
From ElfioV Require Import Bytes Mem Stream SectionData Elfio Loader Layout Writer Load_proofs Codec_proofs
     Ostream_proofs Reader_proofs Layout_proofs Writer_proofs Roundtrip_proofs Segment_proofs Oneseg_proofs Oneseg_writer
     Oneseg_members Reload_oneseg Save_endtoend.
From Coq Require Import Sorted.
Local Open Scope N_scope.

Theorem C05_section_header_survives_save_and_load :
  forall junk os before after enc s (hpos : N) k idx lazy,
    stream_ok os -> good os ->
    plan_small (os_len os) (before ++ (hpos, shdr_bytes enc s) :: after) ->
    (forall w' i, In w' after -> in_range (hpos, shdr_bytes enc s) i = true -> in_range w' i = false) ->
    shdr_wf s -> hpos < 2 ^ 63 ->
    let content := os_bytes (exec_plan os (before ++ (hpos, shdr_bytes enc s) :: after)) in
    exists st' r al,
      section_load junk (open_istream k content) [] enc (with_index (new_section (s_cls s)) idx) (Z.of_N hpos) lazy = Ok (st', r, al) /\
      sh_name r = sh_name s /\ sh_type r = sh_type s /\ sh_flags r = sh_flags s /\ sh_addr r = sh_addr s /\
      sh_offset r = sh_offset s /\ sh_size r = sh_size s /\ sh_link r = sh_link s /\ sh_info r = sh_info s /\
      sh_addralign r = sh_addralign s /\ sh_entsize r = sh_entsize s /\ s_index r = idx.
Proof. exact written_section_header_reads_back. Qed.
Print Assumptions C05_section_header_survives_save_and_load.

Theorem C05_section_data_survives_save_and_load :
  forall junk os before after (off : N) (d : bytes) k s,
    stream_ok os -> good os ->
    plan_small (os_len os) (before ++ (off, d) :: after) ->
    (forall w' i, In w' after -> in_range (off, d) i = true -> in_range w' i = false) ->
    let content := os_bytes (exec_plan os (before ++ (off, d) :: after)) in
    sh_offset s = off -> sh_size s = lenN d -> 0 < lenN d -> s_data s = None ->
    sh_type s <> SHT_NULL -> sh_type s <> SHT_NOBITS -> lenN content < 2 ^ 63 -> s_stream_size s = lenN content ->
    exists st1 s1,
      sec_load_data junk (Some (open_istream k content)) [] s = Ok (Some st1, s1, true, [sh_size s + 1]) /\
      s_data s1 = Some (d ++ [0]).
Proof. exact written_section_data_reads_back. Qed.
Print Assumptions C05_section_data_survives_save_and_load.

(* the layout step keeps name, type, flags, address, size, link, info,
   alignment, entry size and data of every section (objects without segments) *)
Theorem C05_layout_keeps_attributes :
  forall el h0 bound,
    el_hdr el = Some h0 -> el_segs el = [] ->
    bound <= 2 ^ 64 -> Forall (fun s => bound <= 2 ^ xw (s_cls s)) (el_secs el) ->
    e_ehsize h0 + budget (el_secs el) + 16 < bound ->
    exists el', layout el = Ok (el', true) /\ Forall2 keeps (el_secs el) (el_secs el').
Proof.
  intros el h0 bound H1 H2 H3 H4 H5.
  destruct (layout_noseg_laid el h0 bound H1 H2 H3 H4 H5) as (el' & h' & pos' & L).
  exists el'. split; [exact (nl_layout L)|exact (nl_keeps L)].
Qed.
Print Assumptions C05_layout_keeps_attributes.

(* Objects without segments, end to end: the file save() writes for a laid-out
   object (C03_noseg_saved_file), loaded again: the section header table is
   reported entry by entry with the headers that were saved, in order, and a
   data request on a reloaded section stores the bytes that were saved. *)
Theorem C05_noseg_headers_survive :
  forall junk (h : ehdr) (secs : list section) (pos' : N),
    chain secs (e_ehsize h) pos' -> indexed_from 0 secs -> pos' <= e_shoff h ->
    (forall s, In s secs -> s_cls s = e_cls h /\ shdr_wf s) ->
    e_shentsize h = shdr_size (e_cls h) ->
    (forall s, In s secs -> s_index s = 0 -> csize s = 0) ->
    lenN (e_ident h) = 16 -> e_ehsize h = ehdr_size (e_cls h) ->
    (forall s b, In s secs -> s_data s = Some b -> sh_size s <= lenN b) ->
    plan_small 0 (noseg_plan h secs) ->
    e_shoff h + lenN secs * e_shentsize h < 2 ^ 62 -> secs <> [] ->
    forall k,
    let file := os_bytes (exec_plan (new_ostream None) (noseg_plan h secs)) in
    exists st' loaded,
      load_sections_loop junk (length secs) (open_istream k file) [] (e_cls h) (e_enc h) (e_shoff h) (e_shentsize h)
                         0 (lenN secs) true [] [] = Ok (st', rev loaded, []) /\
      is_fail st' = false /\ is_content st' = file /\ Forall2 same_hdr secs loaded.
Proof. exact noseg_headers_read_back. Qed.
Print Assumptions C05_noseg_headers_survive.

Theorem C05_noseg_data_survives :
  forall junk (h : ehdr) (secs : list section) (pos' : N),
    chain secs (e_ehsize h) pos' -> indexed_from 0 secs -> pos' <= e_shoff h ->
    (forall s, In s secs -> s_cls s = e_cls h /\ shdr_wf s) ->
    e_shentsize h = shdr_size (e_cls h) ->
    (forall s, In s secs -> s_index s = 0 -> csize s = 0) ->
    lenN (e_ident h) = 16 -> e_ehsize h = ehdr_size (e_cls h) ->
    (forall s b, In s secs -> s_data s = Some b -> sh_size s <= lenN b) ->
    plan_small 0 (noseg_plan h secs) ->
    e_shoff h + lenN secs * e_shentsize h < 2 ^ 62 ->
    forall st s b r,
    In s secs -> csize s <> 0 -> s_data s = Some b ->
    same_hdr s r -> s_data r = None ->
    s_stream_size r = lenN (os_bytes (exec_plan (new_ostream None) (noseg_plan h secs))) ->
    is_fail st = false -> st_inv st ->
    is_content st = os_bytes (exec_plan (new_ostream None) (noseg_plan h secs)) ->
    lenN (os_bytes (exec_plan (new_ostream None) (noseg_plan h secs))) < 2 ^ 63 ->
    exists st1 s1,
      sec_load_data junk (Some st) [] r = Ok (Some st1, s1, true, [sh_size r + 1]) /\
      s_data s1 = Some (firstnN b (sh_size s) ++ [0]).
Proof. exact noseg_data_read_back. Qed.
Print Assumptions C05_noseg_data_survives.

(* objects with ONE segment of automatically addressed, non-empty allocated data members plus sections outside it
   (the class of C03_one_segment_saved_file / C04_layout_with_one_segment), end to end: the file save() writes, loaded
   again.  The loop of load_sections over the saved section header table reports every section with exactly the header
   fields the saved object has (name index, type, flags, address, offset, size, link, info, alignment, entry size), in
   order; the loop of load_segments over the saved program header table then reports ONE segment with the saved type,
   flags, offset, virtual and physical address, file and memory size and alignment, and - the membership pass being run
   on the reloaded sections - with the member list the segment was saved with (listed in index order, as the loader
   produces it).  Side conditions on the saved object (record fields within their widths, no wrap of the segment's
   memory range) are stated on the object the layout produced. *)
Theorem C05_one_segment_survives_reload :
  forall junk el h0 g bound ms,
    let idxs := g_sections g in
    let align := if 0 <? p_align g then p_align g else 1 in
    let secs := el_secs el in
    let pos0 := e_ehsize h0 + e_phentsize h0 in
    el_hdr el = Some h0 -> el_segs el = [g] -> lenN secs < 2 ^ 16 ->
    lenN idxs < 2 ^ 16 -> idxs <> [] -> g_offset_set g = false -> p_type g <> PT_PHDR -> NoDup idxs ->
    Forall2 (fun i s => nth_optN secs i = Some s) idxs ms ->
    Forall auto_member ms -> Forall (fun s => sh_addralign s <= p_align g) ms ->
    bound <= 2 ^ 62 -> Forall (fun s => bound <= 2 ^ xw (s_cls s)) secs -> bound <= 2 ^ xw (g_cls g) ->
    bound <= 2 ^ xw (e_cls h0) -> p_align g < 2 ^ 63 ->
    p_vaddr g + pos0 + align + mbudget ms + budget secs + 16 + e_shentsize h0 * lenN secs < bound ->
    indexed_from 0 secs ->
    (forall s, In s secs -> s_index s = 0 -> csize s = 0) ->
    (forall s b, In s secs -> s_data s = Some b -> sh_size s <= lenN b) ->
    lenN (e_ident h0) = 16 -> e_ehsize h0 = ehdr_size (e_cls h0) ->
    (forall s, In s secs -> shdr_size (s_cls s) <= e_shentsize h0) ->
    phdr_size (g_cls g) <= e_phentsize h0 -> g_index g = 0 -> e_shentsize h0 = shdr_size (e_cls h0) ->
    p_type g <> PT_TLS -> Forall (fun s => sh_size s <> 0) ms ->
    (forall j s, ~ In j idxs -> nth_optN secs j = Some s ->
       is_tls s \/ (is_alloc s /\ sh_addr s < p_vaddr g) \/ (~ is_alloc s /\ (s_index s = 0 -> sh_offset s < pos0))) ->
    secs <> [] ->
    exists el' h' g',
      layout el = Ok (el', true) /\ el_hdr el' = Some h' /\ el_segs el' = [g'] /\
      let plan := oneseg_plan h' (el_secs el') (segments_plan (e_enc h') h' [g']) in
      (plan_small 0 plan -> phdr_wf g' ->
       (forall s, In s (el_secs el') -> s_cls s = e_cls h' /\ shdr_wf s) ->
       p_vaddr g + p_memsz g' < 2 ^ 64 -> StronglySorted N.lt idxs ->
       forall k f,
       let file := os_bytes (exec_plan (new_ostream None) plan) in
       exists st1 loaded st2 r,
         load_sections_loop junk (length secs) (open_istream k file) [] (e_cls h') (e_enc h') (e_shoff h') (e_shentsize h')
                            0 (e_shnum h') true [] [] = Ok (st1, rev loaded, []) /\
         Forall2 (fun s x => same_hdr s x /\ s_index x = s_index s) (el_secs el') loaded /\
         load_segments_loop (S f) st1 [] loaded (e_enc h') (g_cls g') (e_phoff h') (e_phentsize h') 0 (e_phnum h') true [] [] =
           Ok (st2, [r], true, []) /\
         same_phdr g' r /\ g_sections r = idxs /\ g_index r = g_index g').
Proof.
  intros junk el h0 g bound ms. cbv zeta.
  intros Hh Hs Hnsec Hlen Hne Hos Hty Hnd HF Hauto Hdom Hb62 Hcls Hbg Hbh Hal Hbud Hidx Hnull Hdata Hident Heh Hes Hph Hgi Hes_eq
    Htls Hnz Hfree Hsne.
  assert (O : oneseg el h0 g bound ms) by (constructor; try assumption; lia).
  assert (F : oneseg_file el h0 g bound ms) by (constructor; try assumption; try lia; constructor; assumption).
  destruct (oneseg_laid el h0 g bound ms O) as (el' & h' & g' & ss & pos1 & pos2 & L).
  exists el', h', g'. split; [exact (ld_layout L)|]. split; [exact (ld_hdr L)|]. split; [exact (ld_segs L)|].
  exact (laid_reload junk O L F Hdata Hb62 Hes_eq Htls Hnz Hfree Hsne).
Qed.
Print Assumptions C05_one_segment_survives_reload.

(* ... and the DATA of such a saved object: a data request on a section reloaded from the saved file (same header
   fields, nothing resident yet) stores exactly the bytes the section had when it was saved, followed by the
   terminator - members of the segment and sections outside it alike *)
Theorem C05_one_segment_data_survives_reload :
  forall junk el h0 g bound ms,
    let idxs := g_sections g in
    let align := if 0 <? p_align g then p_align g else 1 in
    let secs := el_secs el in
    let pos0 := e_ehsize h0 + e_phentsize h0 in
    el_hdr el = Some h0 -> el_segs el = [g] -> lenN secs < 2 ^ 16 ->
    lenN idxs < 2 ^ 16 -> idxs <> [] -> g_offset_set g = false -> p_type g <> PT_PHDR -> NoDup idxs ->
    Forall2 (fun i s => nth_optN secs i = Some s) idxs ms ->
    Forall auto_member ms -> Forall (fun s => sh_addralign s <= p_align g) ms ->
    bound <= 2 ^ 63 -> Forall (fun s => bound <= 2 ^ xw (s_cls s)) secs -> bound <= 2 ^ xw (g_cls g) ->
    bound <= 2 ^ xw (e_cls h0) -> p_align g < 2 ^ 63 ->
    p_vaddr g + pos0 + align + mbudget ms + budget secs + 16 + e_shentsize h0 * lenN secs < bound ->
    indexed_from 0 secs ->
    (forall s, In s secs -> s_index s = 0 -> csize s = 0) ->
    (forall s b, In s secs -> s_data s = Some b -> sh_size s <= lenN b) ->
    lenN (e_ident h0) = 16 -> e_ehsize h0 = ehdr_size (e_cls h0) ->
    (forall s, In s secs -> shdr_size (s_cls s) <= e_shentsize h0) ->
    phdr_size (g_cls g) <= e_phentsize h0 -> g_index g = 0 ->
    exists el' h' g',
      layout el = Ok (el', true) /\ el_hdr el' = Some h' /\ el_segs el' = [g'] /\
      let plan := oneseg_plan h' (el_secs el') (segments_plan (e_enc h') h' [g']) in
      (plan_small 0 plan ->
       let file := os_bytes (exec_plan (new_ostream None) plan) in
       lenN file < 2 ^ 63 ->
       forall st s b r,
         In s (el_secs el') -> csize s <> 0 -> s_data s = Some b ->
         same_hdr s r -> s_data r = None -> s_stream_size r = lenN file ->
         is_fail st = false -> st_inv st -> is_content st = file ->
         exists st1 s1,
           sec_load_data junk (Some st) [] r = Ok (Some st1, s1, true, [sh_size r + 1]) /\
           s_data s1 = Some (firstnN b (sh_size s) ++ [0])).
Proof.
  intros junk el h0 g bound ms. cbv zeta.
  intros Hh Hs Hnsec Hlen Hne Hos Hty Hnd HF Hauto Hdom Hb63 Hcls Hbg Hbh Hal Hbud Hidx Hnull Hdata Hident Heh Hes Hph Hgi.
  assert (O : oneseg el h0 g bound ms) by (constructor; try assumption; lia).
  assert (F : oneseg_file el h0 g bound ms) by (constructor; try assumption; constructor; assumption).
  destruct (oneseg_laid el h0 g bound ms O) as (el' & h' & g' & ss & pos1 & pos2 & L).
  exists el', h', g'. split; [exact (ld_layout L)|]. split; [exact (ld_hdr L)|]. split; [exact (ld_segs L)|].
  exact (laid_reload_data junk O L F Hdata).
Qed.
Print Assumptions C05_one_segment_data_survives_reload.

(* what the user did not touch includes the object's environment: the layout step of save() - whatever it does to
   offsets and addresses, and whether or not it succeeds - leaves the address translation table, the compression
   switch and the input stream of the object exactly as they were *)
Theorem C05_layout_leaves_environment :
  forall el el' ok, layout el = Ok (el', ok) ->
    el_xlat el' = el_xlat el /\ el_compr el' = el_compr el /\ el_stream el' = el_stream el.
Proof. exact layout_keeps_env. Qed.
Print Assumptions C05_layout_leaves_environment.

(* sections flagged compressed, objects with the (modelled) compression interface: what the writer stores for such
   a section is the interface's deflate of its data, and what an eager load hands out is the interface's inflate of the
   stored bytes, followed by the terminator byte - for the interface of the correspondence harness the two cancel *)
Theorem C05_compressed_section_codec_cancels :
  forall d, is_bytes d -> map codec_byte (map codec_byte d) = d.
Proof.
  intros d H. induction H as [|b t Hb Ht IH]; [reflexivity|]. cbn [map]. rewrite IH. f_equal.
  unfold codec_byte. rewrite N.lxor_assoc, N.lxor_nilpotent. apply N.lxor_0_r.
Qed.
Print Assumptions C05_compressed_section_codec_cancels.

Theorem C05_eager_load_inflates :
  forall compr s b,
    is_compressed compr s = true -> s_data s = Some b -> sh_size s <= lenN b ->
    inflate_step compr false s = Ok (with_data s (Some (map codec_byte (firstnN b (sh_size s)) ++ [0])) (s_data_size s)).
Proof.
  intros compr s b Hc Hd Hl. unfold inflate_step. rewrite Hc, Hd. cbn [orb negb].
  rewrite rd_some by lia. cbn [bind]. unfold sliceN. now rewrite skipnN_0.
Qed.
Print Assumptions C05_eager_load_inflates.

Definition ex_s : section :=
  with_entsize (with_addralign (with_size (with_offset (with_flags (with_type (new_section C32) 1) 6) 64) 3) 4) 0.
Example C05_example :
  let plan := [(0, repeatN 7 52); (100, shdr_bytes MSB ex_s); (64, [10; 11; 12])] in
  let content := os_bytes (exec_plan (new_ostream None) plan) in
  shdr_wf ex_s /\ plan_small 0 plan /\
  (exists st r al, section_load (fun _ => 0) (open_istream StringBuf content) [] MSB (with_index (new_section C32) 5) 100%Z false = Ok (st, r, al) /\
                   sh_offset r = 64 /\ sh_size r = 3 /\ s_data r = Some [10; 11; 12; 0]).
Proof.
  cbv zeta. split; [unfold shdr_wf, fw; vm_compute; repeat split; reflexivity|]. split; [vm_compute; repeat split; reflexivity|].
  vm_compute. eexists _, _, _. repeat split; reflexivity.
Qed.
