(* Validate_proofs.v — C20: the pairwise file-overlap test of validate() is
   exact, every overlapping pair and every skewed segment is reported. *)
From ElfioV Require Import Bytes Mem Stream SectionData Elfio Table Layout Writer Layout_proofs.
From Coq Require Import ZifyBool ZifyN ZifyNat.
Local Open Scope N_scope.

(* a section occupies file space *)
Definition occupies (s : section) : Prop :=
  sh_type s <> SHT_NOBITS /\ 0 < sh_size s /\ 0 < sh_offset s.
(* its byte range ends inside a 64-bit file *)
Definition in_file (s : section) : Prop := sh_offset s + sh_size s < 2 ^ 64.
(* some file byte belongs to both *)
Definition file_overlap (a b : section) : Prop :=
  exists x, (sh_offset a <= x /\ x < sh_offset a + sh_size a) /\ (sh_offset b <= x /\ x < sh_offset b + sh_size b).

Lemma in_section_spec x s : in_file s ->
  is_offset_in_section x s = true <-> (sh_offset s <= x /\ x < sh_offset s + sh_size s).
Proof.
  intros H. unfold is_offset_in_section, wrap64. rewrite (wrap_small 64 _ H). lia.
Qed.

Lemma last_byte s : in_file s -> 0 < sh_size s ->
  sub64 (add64 (sh_offset s) (sh_size s)) 1 = sh_offset s + sh_size s - 1.
Proof.
  intros H Hs. unfold in_file in H. rewrite add64_id by exact H. apply sub64_id; lia.
Qed.

Theorem overlap_reported_iff a b :
  occupies a -> occupies b -> in_file a -> in_file b ->
  sections_overlap_reported a b = true <-> file_overlap a b.
Proof.
  intros (Ta & Sa & Oa) (Tb & Sb & Ob) Fa Fb.
  unfold sections_overlap_reported. rewrite (last_byte a Fa Sa), (last_byte b Fb Sb).
  assert (E1 : negb (sh_type a =? SHT_NOBITS) = true) by (apply negb_true_iff, N.eqb_neq; exact Ta).
  assert (E2 : negb (sh_type b =? SHT_NOBITS) = true) by (apply negb_true_iff, N.eqb_neq; exact Tb).
  rewrite E1, E2. cbn [andb].
  replace (0 <? sh_size a) with true by (symmetry; apply N.ltb_lt; exact Sa).
  replace (0 <? sh_size b) with true by (symmetry; apply N.ltb_lt; exact Sb).
  replace (0 <? sh_offset a) with true by (symmetry; apply N.ltb_lt; exact Oa).
  replace (0 <? sh_offset b) with true by (symmetry; apply N.ltb_lt; exact Ob).
  cbn [andb]. rewrite !orb_true_iff.
  rewrite !(in_section_spec _ a Fa), !(in_section_spec _ b Fb).
  unfold file_overlap, in_file in *. split.
  - intros [[[H|H]|H]|H].
    + exists (sh_offset a). lia.
    + exists (sh_offset a + sh_size a - 1). lia.
    + exists (sh_offset b). lia.
    + exists (sh_offset b + sh_size b - 1). lia.
  - intros (x & Hx). 
    destruct (N.le_gt_cases (sh_offset b) (sh_offset a)); [left; left; left; lia|left; right; lia].
Qed.

Lemma not_occupying_not_reported a b :
  (sh_type a = SHT_NOBITS \/ sh_size a = 0 \/ sh_offset a = 0) -> sections_overlap_reported a b = false.
Proof.
  unfold sections_overlap_reported. intros [H|[H|H]]; rewrite H; cbn [N.eqb Pos.eqb negb andb N.ltb N.compare]; rewrite ?andb_false_r; reflexivity.
Qed.

Lemma reported_occupies a b : sections_overlap_reported a b = true -> occupies a /\ occupies b.
Proof.
  unfold sections_overlap_reported, occupies. intros Hr.
  repeat (apply andb_true_iff in Hr; destruct Hr as [Hr ?]).
  apply negb_true_iff, N.eqb_neq in Hr.
  match goal with H : negb (sh_type b =? _) = true |- _ => apply negb_true_iff, N.eqb_neq in H end.
  repeat split; try assumption; lia.
Qed.

Lemma inner_in a i j0 l k b :
  nth_optN l k = Some b -> sections_overlap_reported a b = true -> In (COverlap i (j0 + k)) (overlap_inner a i j0 l).
Proof.
  revert j0 k; induction l as [|c t IH]; intros j0 k Hn Hr; cbn [nth_optN] in Hn; [discriminate|].
  cbn [overlap_inner]. apply in_or_app. destruct (N.eqb_spec k 0) as [E|Hk].
  - subst k. injection Hn as ->. rewrite Hr. left. rewrite N.add_0_r. now left.
  - right. replace (j0 + k) with ((j0 + 1) + (k - 1)) by lia. now apply IH.
Qed.

Lemma pairs_in secs : forall i0 i j a b,
  i < j -> nth_optN secs i = Some a -> nth_optN secs j = Some b ->
  sections_overlap_reported a b = true -> In (COverlap (i0 + i) (i0 + j)) (overlap_pairs i0 secs).
Proof.
  induction secs as [|c rest IH]; intros i0 i j a b Hij Ha Hb Hr; cbn [nth_optN] in Ha, Hb; [discriminate|].
  cbn [overlap_pairs]. apply in_or_app.
  destruct (N.eqb_spec j 0) as [Ej|Hj]; [lia|].
  destruct (N.eqb_spec i 0) as [Ei|Hi].
  - subst i. injection Ha as ->. left. rewrite N.add_0_r.
    replace (i0 + j) with ((i0 + 1) + (j - 1)) by lia. now apply inner_in with (b := b).
  - right. replace (i0 + i) with ((i0 + 1) + (i - 1)) by lia. replace (i0 + j) with ((i0 + 1) + (j - 1)) by lia.
    apply IH with (a := a) (b := b); try assumption. lia.
Qed.

Lemma inner_sound a i j0 l c : In c (overlap_inner a i j0 l) ->
  exists k b, c = COverlap i (j0 + k) /\ nth_optN l k = Some b /\ sections_overlap_reported a b = true.
Proof.
  revert j0; induction l as [|d t IH]; intros j0 H; cbn [overlap_inner] in H; [contradiction|].
  apply in_app_or in H. destruct H as [H|H].
  - destruct (sections_overlap_reported a d) eqn:E; [|contradiction]. destruct H as [<-|[]].
    exists 0, d. rewrite N.add_0_r. cbn [nth_optN N.eqb]. auto.
  - destruct (IH _ H) as (k & b & -> & Hn & Hr). exists (k + 1), b. split; [f_equal; lia|]. split; [|exact Hr].
    cbn [nth_optN]. destruct (N.eqb_spec (k + 1) 0); [lia|]. now replace (k + 1 - 1) with k by lia.
Qed.

Lemma pairs_sound secs : forall i0 c, In c (overlap_pairs i0 secs) ->
  exists i j a b, c = COverlap (i0 + i) (i0 + j) /\ i < j /\ nth_optN secs i = Some a /\ nth_optN secs j = Some b /\
                  sections_overlap_reported a b = true.
Proof.
  induction secs as [|d rest IH]; intros i0 c H; cbn [overlap_pairs] in H; [contradiction|].
  apply in_app_or in H. destruct H as [H|H].
  - destruct (inner_sound _ _ _ _ _ H) as (k & b & -> & Hn & Hr).
    exists 0, (k + 1), d, b. split; [f_equal; lia|]. split; [lia|]. split; [reflexivity|]. split; [|exact Hr].
    cbn [nth_optN]. destruct (N.eqb_spec (k + 1) 0); [lia|]. now replace (k + 1 - 1) with k by lia.
  - destruct (IH _ _ H) as (i & j & a & b & -> & Hij & Ha & Hb & Hr).
    exists (i + 1), (j + 1), a, b. split; [f_equal; lia|]. split; [lia|].
    cbn [nth_optN]. destruct (N.eqb_spec (i + 1) 0); [lia|]. destruct (N.eqb_spec (j + 1) 0); [lia|].
    replace (i + 1 - 1) with i by lia. replace (j + 1 - 1) with j by lia. auto.
Qed.

Lemma validate_small el : lenN (el_secs el) < 2 ^ 16 -> lenN (el_segs el) < 2 ^ 16 ->
  validate el = overlap_pairs 0 (el_secs el) ++ seg_conflicts (el_secs el) (el_segs el).
Proof. intros Hn Hm. unfold validate, wrap16. rewrite !wrap_small, !firstnN_all by lia. reflexivity. Qed.

Lemma in_overlap_pairs secs i j :
  In (COverlap i j) (overlap_pairs 0 secs) <->
  exists a b, i < j /\ nth_optN secs i = Some a /\ nth_optN secs j = Some b /\ sections_overlap_reported a b = true.
Proof.
  split.
  - intros H. destruct (pairs_sound _ _ _ H) as (i' & j' & a & b & E & Hij & Ha & Hb & Hr). injection E as -> ->. eauto 10.
  - intros (a & b & Hij & Ha & Hb & Hr). exact (pairs_in secs 0 i j a b Hij Ha Hb Hr).
Qed.

Lemma in_seg_conflicts secs segs c :
  In c (seg_conflicts secs segs) <->
  exists g sec, In g segs /\ find_prog_section secs (p_offset g) = Some sec /\ p_type g = PT_LOAD /\ 0 < p_filesz g /\
                get_virtual_addr (p_offset g) sec <> p_vaddr g /\ c = CSegAddr (g_index g) (s_index sec).
Proof.
  unfold seg_conflicts. rewrite in_concat. split.
  - intros (l & Hl & Hc). apply in_map_iff in Hl. destruct Hl as (g & <- & Hg).
    destruct (find_prog_section secs (p_offset g)) as [sec|] eqn:Ef; [|contradiction].
    destruct (N.eqb_spec (p_type g) PT_LOAD) as [Et|Et]; cbn [andb] in Hc; [|contradiction].
    destruct (N.ltb_spec 0 (p_filesz g)) as [Hf|Hf]; cbn [andb] in Hc; [|contradiction].
    destruct (N.eqb_spec (get_virtual_addr (p_offset g) sec) (p_vaddr g)) as [Ev|Ev]; cbn [negb] in Hc; [contradiction|].
    destruct Hc as [<-|[]]. eauto 10.
  - intros (g & sec & Hg & Ef & Et & Hf & Ev & ->). eexists. split; [apply in_map_iff; exists g; split; [reflexivity|exact Hg]|].
    rewrite Ef, Et. apply N.ltb_lt in Hf. apply N.eqb_neq in Ev. rewrite Hf, Ev. now left.
Qed.

(* validate() reports every pair of sections of the object that share a file byte *)
Theorem validate_reports_overlap el i j a b :
  lenN (el_secs el) < 2 ^ 16 -> lenN (el_segs el) < 2 ^ 16 ->
  i < j -> nth_optN (el_secs el) i = Some a -> nth_optN (el_secs el) j = Some b ->
  occupies a -> occupies b -> in_file a -> in_file b -> file_overlap a b ->
  In (COverlap i j) (validate el).
Proof.
  intros Hn Hm Hij Ha Hb Oa Ob Fa Fb Hov. rewrite validate_small by assumption. apply in_or_app. left.
  apply in_overlap_pairs. exists a, b. do 3 (split; [assumption|]). now apply overlap_reported_iff.
Qed.

(* ... and complains about overlap only for such pairs *)
Theorem validate_overlap_sound el i j :
  lenN (el_secs el) < 2 ^ 16 -> lenN (el_segs el) < 2 ^ 16 ->
  (forall s, In s (el_secs el) -> in_file s) ->
  In (COverlap i j) (validate el) ->
  exists a b, i < j /\ nth_optN (el_secs el) i = Some a /\ nth_optN (el_secs el) j = Some b /\
              occupies a /\ occupies b /\ file_overlap a b.
Proof.
  intros Hn Hm Hall H. rewrite validate_small in H by assumption. apply in_app_or in H. destruct H as [H|H].
  - apply in_overlap_pairs in H. destruct H as (a & b & Hij & Ha & Hb & Hr). exists a, b.
    destruct (reported_occupies a b Hr) as [Oa Ob]. do 5 (split; [assumption|]).
    apply overlap_reported_iff; eauto using nth_optN_In.
  - apply in_seg_conflicts in H. destruct H as (g & sec & _ & _ & _ & _ & _ & E). discriminate.
Qed.

Lemma find_prog_section_spec secs off s :
  find_prog_section secs off = Some s -> In s secs /\ sh_type s = SHT_PROGBITS /\ is_offset_in_section off s = true.
Proof.
  induction secs as [|c t IH]; cbn [find_prog_section]; [discriminate|].
  destruct ((sh_type c =? SHT_PROGBITS) && is_offset_in_section off c) eqn:E.
  - intros [= ->]. apply andb_true_iff in E. destruct E as [E1 E2]. apply N.eqb_eq in E1. split; [now left|]. auto.
  - intros H. destruct (IH H) as (? & ? & ?). split; [now right|]. auto.
Qed.

Theorem validate_reports_skew el g sec :
  lenN (el_secs el) < 2 ^ 16 -> lenN (el_segs el) < 2 ^ 16 ->
  In g (el_segs el) -> p_type g = PT_LOAD -> 0 < p_filesz g ->
  find_prog_section (el_secs el) (p_offset g) = Some sec ->
  get_virtual_addr (p_offset g) sec <> p_vaddr g ->
  In (CSegAddr (g_index g) (s_index sec)) (validate el).
Proof.
  intros Hn Hm Hg Ht Hf Hs Hv. rewrite validate_small by assumption. apply in_or_app. right.
  apply in_seg_conflicts. eauto 10.
Qed.

(* where the section really lies in the file, the address the model computes is
   the ELF one: sh_addr + (offset - sh_offset) *)
Lemma get_virtual_addr_plain off s :
  sh_offset s <= off -> sh_addr s + off < 2 ^ 64 ->
  get_virtual_addr off s = sh_addr s + (off - sh_offset s).
Proof.
  intros H1 H2. unfold get_virtual_addr. rewrite add64_id by exact H2.
  rewrite sub64_id by lia. lia.
Qed.

(* no complaint at all when nothing overlaps and every loadable segment agrees *)
Theorem validate_clean el :
  lenN (el_secs el) < 2 ^ 16 -> lenN (el_segs el) < 2 ^ 16 ->
  (forall i j a b, i < j -> nth_optN (el_secs el) i = Some a -> nth_optN (el_secs el) j = Some b ->
                   sections_overlap_reported a b = false) ->
  (forall g sec, In g (el_segs el) -> p_type g = PT_LOAD -> 0 < p_filesz g ->
                 find_prog_section (el_secs el) (p_offset g) = Some sec ->
                 get_virtual_addr (p_offset g) sec = p_vaddr g) ->
  validate el = [].
Proof.
  intros Hn Hm Hp Hs.
  destruct (validate el) as [|c l] eqn:E; [reflexivity|exfalso].
  assert (Hin : In c (validate el)) by (rewrite E; now left).
  rewrite validate_small in Hin by assumption. apply in_app_or in Hin. destruct Hin as [H|H].
  - destruct (pairs_sound _ _ _ H) as (i & j & a & b & _ & Hij & Ha & Hb & Hr).
    rewrite (Hp i j a b Hij Ha Hb) in Hr. discriminate.
  - apply in_seg_conflicts in H. destruct H as (g & sec & Hg & Ef & Et & Hf & Ev & _). now apply Ev, Hs.
Qed.
