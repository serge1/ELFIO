(* Tie_conv.v — tie A, part 3: the endianness convertor and the symbol/relocation info macros,
   translated from the clang AST of /repo (Gen_leaf.v, regenerated on every run), implement what the
   model assumes: the model decodes a field of a file with byte order e as [dec_uint e bytes] and
   encodes it as [enc_uint e n v]; the C++ reads/writes the bytes in host order and passes the value
   through endianness_convertor::operator() when the file's order differs from the host's. *)
From Coq Require Import NArith Bool List Lia ZifyBool ZifyN.
Import ListNotations.
From ElfioV Require Import Bytes Mem Stream SectionData Strings Elfio Table Accessors Leaf_ops Gen_leaf.
Local Open Scope N_scope.
Lemma land_shifted_byte v s : N.land v (N.shiftl 255 s) = N.shiftl (N.land (N.shiftr v s) 255) s.
Proof.
  apply N.bits_inj; intro i. rewrite N.land_spec.
  destruct (N.lt_ge_cases i s) as [Hi|Hi].
  - rewrite !N.shiftl_spec_low by assumption. apply andb_false_r.
  - rewrite !N.shiftl_spec_high' by assumption. rewrite N.land_spec, N.shiftr_spec'.
    replace (i - s + s) with i by lia. reflexivity.
Qed.

Lemma byte_at v k : N.land v (255 * 2 ^ k) = ((v / 2 ^ k) mod 256) * 2 ^ k.
Proof.
  rewrite <- (N.shiftl_mul_pow2 255 k), land_shifted_byte, N.shiftl_mul_pow2, N.shiftr_div_pow2.
  change 255 with (N.ones 8). rewrite N.land_ones. reflexivity.
Qed.

Lemma lor_high_low b k a : a < 2 ^ k -> N.lor (b * 2 ^ k) a = b * 2 ^ k + a.
Proof. intro H. rewrite N.lor_comm, lor_disjoint by assumption. lia. Qed.

Lemma dec_le_byte bs : forall k, is_bytes bs -> (dec_le bs / 2 ^ (8 * N.of_nat k)) mod 256 = nth k bs 0.
Proof.
  induction bs as [|b t IH]; intros k Hb; cbn [dec_le].
  - rewrite N.div_0_l by (apply N.pow_nonzero; discriminate). now destruct k.
  - inversion Hb as [|? ? Hb0 Hbt]; subst. destruct k as [|k]; cbn [nth].
    + change (2 ^ (8 * N.of_nat 0)) with 1. rewrite N.div_1_r, (N.mul_comm 256), N.mod_add by discriminate. now apply N.mod_small.
    + rewrite <- (IH k Hbt). f_equal.
      replace (2 ^ (8 * N.of_nat (S k))) with (256 * 2 ^ (8 * N.of_nat k)).
      2:{ replace (8 * N.of_nat (S k)) with (8 + 8 * N.of_nat k) by lia. now rewrite N.pow_add_r. }
      rewrite <- N.div_div by (try apply N.pow_nonzero; discriminate). f_equal.
      rewrite (N.mul_comm 256), N.div_add by discriminate. now rewrite N.div_small.
Qed.

Lemma shl_byte b k j m w : b < 256 -> m = k + j -> m + 8 <= w -> ushl w (b * 2 ^ k) j = b * 2 ^ m.
Proof.
  intros Hb -> Hw. unfold ushl. rewrite N.shiftl_mul_pow2, <- N.mul_assoc, <- N.pow_add_r. apply wrap_small.
  apply N.lt_le_trans with (2 ^ 8 * 2 ^ (k + j)).
  - apply N.mul_lt_mono_pos_r; [|exact Hb]. apply N.neq_0_lt_0, N.pow_nonzero. discriminate.
  - rewrite <- N.pow_add_r. apply N.pow_le_mono_r; [discriminate|lia].
Qed.
Lemma shr_byte b k j m : k = m + j -> N.shiftr (b * 2 ^ k) j = b * 2 ^ m.
Proof. intros ->. rewrite N.shiftr_div_pow2, N.pow_add_r, N.mul_assoc. apply N.div_mul, N.pow_nonzero. discriminate. Qed.

Lemma lor_push acc b k m : b < 256 -> m = k + 8 -> N.lor (acc * 2 ^ m) (b * 2 ^ k) = (acc * 256 + b) * 2 ^ k.
Proof.
  intros Hb ->. replace (acc * 2 ^ (k + 8)) with (acc * 2 ^ 8 * 2 ^ k) by (rewrite N.pow_add_r; ring).
  rewrite <- !(N.shiftl_mul_pow2 _ k), <- N.shiftl_lor. f_equal. now apply lor_high_low.
Qed.

Ltac bytes_of Hb := unfold is_bytes in Hb; repeat match goal with H : Forall _ (_ :: _) |- _ => inversion H; clear H; subst end.

Lemma is_bytes_2 b0 b1 : is_bytes [b0; b1] -> b0 < 256 /\ b1 < 256.
Proof. intro H. inversion H as [|? ? A H1]; subst. inversion H1; subst. auto. Qed.

Theorem tie_conv_off : forall v, gen_conv16 v false = v /\ gen_conv32 v false = v /\ gen_conv64 v false = v.
Proof. intro v. repeat split. Qed.

(* reading: the host (LSB) word run through the convertor is the big-endian reading of the same bytes.
   Each mask-and-shift term is one byte of the word moved to its mirrored position. *)
Theorem tie_conv16_read : forall bs, length bs = 2%nat -> is_bytes bs -> gen_conv16 (dec_uint LSB bs) true = dec_uint MSB bs.
Proof.
  intros bs Hl Hb. destruct bs as [|b0 [|b1 [|]]]; try discriminate Hl.
  unfold gen_conv16. cbn [negb dec_uint]. set (bs := [b0; b1]) in *.
  change 255 with (255 * 2 ^ 0). change 65280 with (255 * 2 ^ 8). rewrite !byte_at.
  rewrite (dec_le_byte bs 0 Hb : (dec_le bs / 2 ^ 0) mod 256 = _), (dec_le_byte bs 1 Hb : (dec_le bs / 2 ^ 8) mod 256 = _).
  subst bs. cbn [nth]. bytes_of Hb.
  rewrite (shl_byte b0 0 8 8 32), (shr_byte b1 8 8 0) by (assumption || reflexivity || discriminate).
  rewrite (wrap_small 16 (b0 * 2 ^ 8)) by (change (2 ^ 8) with 256; change (2 ^ 16) with 65536; lia).
  rewrite (lor_push b0 b1 0 8) by (assumption || reflexivity).
  rewrite wrap_small by (change (2 ^ 0) with 1; change (2 ^ 16) with 65536; lia).
  cbn [rev app dec_le]. change (2 ^ 0) with 1. lia.
Qed.
Theorem tie_conv32_read : forall bs, length bs = 4%nat -> is_bytes bs -> gen_conv32 (dec_uint LSB bs) true = dec_uint MSB bs.
Proof.
  intros bs Hl Hb. destruct bs as [|b0 [|b1 [|b2 [|b3 [|]]]]]; try discriminate Hl.
  unfold gen_conv32. cbn [negb dec_uint]. set (bs := [b0; b1; b2; b3]) in *.
  change 255 with (255 * 2 ^ 0). change 65280 with (255 * 2 ^ 8). change 16711680 with (255 * 2 ^ 16).
  change 4278190080 with (255 * 2 ^ 24). rewrite !byte_at.
  rewrite (dec_le_byte bs 0 Hb : (dec_le bs / 2 ^ 0) mod 256 = _), (dec_le_byte bs 1 Hb : (dec_le bs / 2 ^ 8) mod 256 = _),
    (dec_le_byte bs 2 Hb : (dec_le bs / 2 ^ 16) mod 256 = _), (dec_le_byte bs 3 Hb : (dec_le bs / 2 ^ 24) mod 256 = _).
  subst bs. cbn [nth]. bytes_of Hb.
  rewrite (shl_byte b0 0 24 24 32), (shl_byte b1 8 8 16 32), (shr_byte b2 16 8 8), (shr_byte b3 24 24 0) by
    (assumption || reflexivity || discriminate).
  rewrite (lor_push b0 b1 16 24), (lor_push _ b2 8 16), (lor_push _ b3 0 8) by (assumption || reflexivity).
  cbn [rev app dec_le]. change (2 ^ 0) with 1. lia.
Qed.
Theorem tie_conv64_read : forall bs, length bs = 8%nat -> is_bytes bs -> gen_conv64 (dec_uint LSB bs) true = dec_uint MSB bs.
Proof.
  intros bs Hl Hb. destruct bs as [|b0 [|b1 [|b2 [|b3 [|b4 [|b5 [|b6 [|b7 [|]]]]]]]]]; try discriminate Hl.
  unfold gen_conv64. cbn [negb dec_uint]. set (bs := [b0; b1; b2; b3; b4; b5; b6; b7]) in *.
  change 255 with (255 * 2 ^ 0). change 65280 with (255 * 2 ^ 8). change 16711680 with (255 * 2 ^ 16).
  change 4278190080 with (255 * 2 ^ 24). change 1095216660480 with (255 * 2 ^ 32). change 280375465082880 with (255 * 2 ^ 40).
  change 71776119061217280 with (255 * 2 ^ 48). change 18374686479671623680 with (255 * 2 ^ 56). rewrite !byte_at.
  rewrite (dec_le_byte bs 0 Hb : (dec_le bs / 2 ^ 0) mod 256 = _), (dec_le_byte bs 1 Hb : (dec_le bs / 2 ^ 8) mod 256 = _),
    (dec_le_byte bs 2 Hb : (dec_le bs / 2 ^ 16) mod 256 = _), (dec_le_byte bs 3 Hb : (dec_le bs / 2 ^ 24) mod 256 = _),
    (dec_le_byte bs 4 Hb : (dec_le bs / 2 ^ 32) mod 256 = _), (dec_le_byte bs 5 Hb : (dec_le bs / 2 ^ 40) mod 256 = _),
    (dec_le_byte bs 6 Hb : (dec_le bs / 2 ^ 48) mod 256 = _), (dec_le_byte bs 7 Hb : (dec_le bs / 2 ^ 56) mod 256 = _).
  subst bs. cbn [nth]. bytes_of Hb.
  rewrite (shl_byte b0 0 56 56 64), (shl_byte b1 8 40 48 64), (shl_byte b2 16 24 40 64), (shl_byte b3 24 8 32 64),
    (shr_byte b4 32 8 24), (shr_byte b5 40 24 16), (shr_byte b6 48 40 8), (shr_byte b7 56 56 0) by
    (assumption || reflexivity || discriminate).
  rewrite (lor_push b0 b1 48 56), (lor_push _ b2 40 48), (lor_push _ b3 32 40), (lor_push _ b4 24 32), (lor_push _ b5 16 24),
    (lor_push _ b6 8 16), (lor_push _ b7 0 8) by (assumption || reflexivity).
  cbn [rev app dec_le]. change (2 ^ 0) with 1. lia.
Qed.

Lemma conv_write_from_read (n : nat) (conv : N -> bool -> N) :
  (forall bs, length bs = n -> is_bytes bs -> conv (dec_uint LSB bs) true = dec_uint MSB bs) ->
  forall v, v < 256 ^ N.of_nat n -> enc_uint LSB n (conv v true) = enc_uint MSB n v.
Proof.
  intros Hr v Hv.
  rewrite <- (dec_enc_uint_small LSB n v Hv) at 1.
  rewrite Hr by (apply enc_uint_length || apply enc_uint_is_bytes).
  cbn [dec_uint enc_uint].
  assert (L : length (rev (enc_le n v)) = n) by (rewrite rev_length; apply enc_le_length).
  rewrite <- L at 1. rewrite enc_dec_le by (apply Forall_rev, enc_le_is_bytes). reflexivity.
Qed.
Theorem tie_conv16_write : forall v, v < 2 ^ 16 -> enc_uint LSB 2 (gen_conv16 v true) = enc_uint MSB 2 v.
Proof. exact (conv_write_from_read 2 gen_conv16 tie_conv16_read). Qed.
Theorem tie_conv32_write : forall v, v < 2 ^ 32 -> enc_uint LSB 4 (gen_conv32 v true) = enc_uint MSB 4 v.
Proof. exact (conv_write_from_read 4 gen_conv32 tie_conv32_read). Qed.
Theorem tie_conv64_write : forall v, v < 2 ^ 64 -> enc_uint LSB 8 (gen_conv64 v true) = enc_uint MSB 8 v.
Proof. exact (conv_write_from_read 8 gen_conv64 tie_conv64_read). Qed.

(* ELF_ST_BIND / ELF_ST_TYPE / ELF_ST_INFO at the types of their call sites *)
Theorem tie_st_bind : forall i, i < 256 -> gen_st_bind i = N.shiftr i 4.
Proof.
  intros i Hi. unfold gen_st_bind, wrap. apply N.mod_small. rewrite N.shiftr_div_pow2. change (2 ^ 4) with 16. change (2 ^ 8) with 256. lia.
Qed.
Theorem tie_st_type : forall i, gen_st_type i = N.land i 15.
Proof.
  intro i. unfold gen_st_type, wrap. apply N.mod_small. change 15 with (N.ones 4). rewrite N.land_ones. change (2 ^ 4) with 16. change (2 ^ 8) with 256. lia.
Qed.
(* ELF_ST_INFO is the ABI packing: binding in the high, type in the low four bits; what get_symbol unpacks *)
Theorem tie_st_info : forall b t, b < 16 -> t < 256 ->
  gen_st_info b t = b * 16 + t mod 16 /\ gen_st_bind (gen_st_info b t) = b /\ gen_st_type (gen_st_info b t) = t mod 16.
Proof.
  intros b t Hb Ht.
  assert (E : gen_st_info b t = b * 16 + t mod 16).
  { unfold gen_st_info, uadd, ushl, wrap. rewrite N.shiftl_mul_pow2. change 15 with (N.ones 4). rewrite N.land_ones.
    change (2 ^ 4) with 16. change (2 ^ 8) with 256. change (2 ^ 32) with 4294967296. lia. }
  split; [exact E|]. rewrite tie_st_type, E. unfold gen_st_bind, wrap. rewrite N.shiftr_div_pow2.
  change 15 with (N.ones 4). rewrite N.land_ones. change (2 ^ 4) with 16. change (2 ^ 8) with 256. split; lia.
Qed.

(* ELF32_R_INFO / ELF64_R_INFO at the types of their call sites *)
Theorem tie_r_info32 : forall s t, s < 2 ^ 32 -> wrap32 (gen_r_info32 s t) = r_info C32 s t.
Proof.
  intros s t Hs. unfold gen_r_info32, r_info, uadd, ushl, wrap32, wrap64, wrap8. rewrite N.shiftl_mul_pow2.
  change (2 ^ 8) with 256. unfold wrap.
  assert (Hm : (s * 256) mod 2 ^ 64 = s * 256) by (apply N.mod_small; change (2 ^ 32) with 4294967296 in Hs; change (2 ^ 64) with 18446744073709551616; lia).
  rewrite Hm. f_equal. apply N.mod_small.
  change (2 ^ 32) with 4294967296 in Hs; change (2 ^ 64) with 18446744073709551616. change (2 ^ 8) with 256.
  pose proof (N.mod_lt t 256). lia.
Qed.
Theorem tie_r_info64 : forall s t, t < 2 ^ 32 -> gen_r_info64 s t = r_info C64 s t.
Proof.
  intros s t Ht. unfold gen_r_info64, r_info, uadd, ushl, wrap64, wrap32. rewrite N.shiftl_mul_pow2.
  change 4294967295 with (N.ones 32). rewrite N.land_ones. reflexivity.
Qed.
