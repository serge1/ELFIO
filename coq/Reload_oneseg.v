(* Reload_oneseg.v — C02/C05: a program header entry is reported field by field through segment::load and the
   loop of load_segments (with the membership pass); then, for the file a save() of a one-segment object wrote,
   what a load of that file reports: every section header and the segment - same type, flags, addresses, sizes,
   alignment, and the same member list. *)
From ElfioV Require Import Bytes Mem Stream Stream_proofs SectionData Elfio Loader Layout Writer Load_proofs Data_proofs Ostream_proofs Codec_proofs Reader_proofs Layout_proofs Segment_proofs Writer_proofs Oneseg_proofs Oneseg_writer Oneseg_members Roundtrip_proofs.
From Coq Require Import Sorted.
Local Open Scope N_scope.

Definition same_phdr (g r : segment) : Prop :=
  p_type r = p_type g /\ p_flags r = p_flags g /\ p_offset r = p_offset g /\ p_vaddr r = p_vaddr g /\
  p_paddr r = p_paddr g /\ p_filesz r = p_filesz g /\ p_memsz r = p_memsz g /\ p_align r = p_align g.

(* segment::load of one table entry (lazy) *)
Theorem segment_load_reports_lazy st enc c (pos : N) g' :
  is_fail st = false -> st_inv st -> pos < 2 ^ 63 -> pos + phdr_size c <= lenN (is_content st) ->
  g_cls g' = c -> phdr_wf g' ->
  sliceN (is_content st) pos (phdr_size c) = phdr_bytes enc g' ->
  exists st' r,
    segment_load st [] enc (new_segment c) (Z.of_N pos) true = Ok (st', r, true, []) /\
    is_fail st' = false /\ st_inv st' /\ is_content st' = is_content st /\
    same_phdr g' r /\ g_sections r = [] /\ g_cls r = c /\ g_data r = None.
Proof.
  intros Hf Hi _ Hin Hc Hwf Hsl. rewrite segment_load_unfold. change (g_cls (new_segment c)) with c.
  destruct (open_entry_plain st pos (phdr_size c) Hf Hi) as (st3 & -> & SS & F3 & _). rewrite Hsl.
  unfold segment_load_rest. rewrite fill_struct_full by (rewrite !lenN_phdr_bytes, Hc; apply N.le_refl). cbn [orb].
  eexists st3, _. split; [reflexivity|]. split; [exact (F3 Hin)|]. split; [exact (st_same_inv _ _ SS Hi)|]. split; [apply SS|].
  split; [exact (phdr_roundtrip enc (new_segment c) g' _ true (eq_sym Hc) Hwf)|].
  unfold seg_of_raw. cbn [g_cls new_segment]. destruct c; cbn; auto.
Qed.

Lemma seg_members_same_seg g r secs : same_phdr g r -> seg_members r secs = seg_members g secs.
Proof.
  intros (G1 & _ & G3 & G4 & _ & G6 & G7 & _). rewrite !seg_members_exact. f_equal. apply filter_ext. intros s.
  unfold member_spec. now rewrite G1, G3, G4, G6, G7.
Qed.

Lemma seg_members_same g secs loaded :
  Forall2 (fun s x => same_hdr s x /\ s_index x = s_index s) secs loaded -> seg_members g loaded = seg_members g secs.
Proof.
  intros HF. rewrite !seg_members_exact.
  induction HF as [|s x t t' [(_ & _ & S3 & S4 & S5 & S6 & _) Hi] HF IH]; [reflexivity|]. cbn [filter].
  replace (member_spec g x) with (member_spec g s) by (unfold member_spec; now rewrite S3, S4, S5, S6).
  destruct (member_spec g s); cbn [map]; [rewrite Hi|]; now rewrite IH.
Qed.

Lemma same_phdr_trans a b c : same_phdr a b -> same_phdr b c -> same_phdr a c.
Proof. unfold same_phdr. intros (? & ? & ? & ? & ? & ? & ? & ?) (? & ? & ? & ? & ? & ? & ? & ?). repeat split; congruence. Qed.

Lemma add_indices_fields : forall l g,
  let g' := fold_left (fun g idx => seg_add_section_index g idx 0) l g in
  same_phdr g g' /\ g_sections g' = g_sections g ++ map wrap16 l /\ g_cls g' = g_cls g /\ g_index g' = g_index g /\ g_data g' = g_data g.
Proof.
  induction l as [|i t IH]; intro g; cbn [fold_left map].
  - rewrite app_nil_r. unfold same_phdr. repeat split; reflexivity.
  - destruct (IH (seg_add_section_index g i 0)) as ((A1 & A2 & A3 & A4 & A5 & A6 & A7 & A8) & B & C & D & E). cbv zeta.
    assert (X : seg_add_section_index g i 0 = seg_with_sections g (g_sections g ++ [wrap16 i])).
    { unfold seg_add_section_index. destruct (N.ltb_spec (p_align (seg_with_sections g (g_sections g ++ [wrap16 i]))) 0); [lia|reflexivity]. }
    rewrite X in *. cbn in A1, A2, A3, A4, A5, A6, A7, A8, B, C, D, E.
    unfold same_phdr. rewrite B, <- app_assoc. repeat split; assumption.
Qed.

Lemma load_segments_loop_done f st t secs enc c off es n lazy racc al :
  load_segments_loop f st t secs enc c off es n n lazy racc al = Ok (st, racc, true, al).
Proof. destruct f; cbn [load_segments_loop]; [|rewrite N.ltb_irrefl]; reflexivity. Qed.

(* one iteration of the loop of load_segments (lazy load, no address translation) on an entry that lies inside the
   stream: segment::load, then the membership pass over the sections loaded before *)
Lemma load_segments_loop_step f st enc c (phoff es i num : N) secs g racc allocs :
  is_fail st = false -> st_inv st -> i < num -> phoff + i * es < 2 ^ 63 ->
  phoff + i * es + phdr_size c <= lenN (is_content st) -> g_cls g = c -> phdr_wf g ->
  sliceN (is_content st) (phoff + i * es) (phdr_size c) = phdr_bytes enc g ->
  exists st' r,
    load_segments_loop (S f) st [] secs enc c phoff es i num true racc allocs =
      load_segments_loop f st' [] secs enc c phoff es (i + 1) num true (r :: racc) allocs /\
    is_fail st' = false /\ st_inv st' /\ is_content st' = is_content st /\
    same_phdr g r /\ g_sections r = map wrap16 (seg_members g secs) /\ g_cls r = c /\ g_index r = wrap16 i.
Proof.
  intros Hf Hi Hlt Hp Hin Hc Hwf Hsl. cbn [load_segments_loop]. apply N.ltb_lt in Hlt. rewrite Hlt.
  rewrite table_pos_plain by lia.
  destruct (segment_load_reports_lazy st enc c (phoff + i * es) g Hf Hi Hp Hin Hc Hwf Hsl)
    as (st1 & r & -> & F1 & I1 & C1 & SP & GS & GC & _). cbn [bind negb orb app]. rewrite F1.
  set (g2 := seg_with_index r (wrap16 i)).
  assert (SP2 : same_phdr g g2) by exact SP.
  destruct (add_indices_fields (seg_members g2 secs) g2) as (SP3 & GS3 & GC3 & GI3 & _). cbv zeta in *.
  eexists st1, _. split; [reflexivity|]. split; [exact F1|]. split; [exact I1|]. split; [exact C1|].
  split; [exact (same_phdr_trans _ _ _ SP2 SP3)|]. rewrite GS3, GC3, GI3, (seg_members_same_seg g g2 secs SP2).
  unfold g2. cbn [g_sections g_cls g_index seg_with_index]. rewrite GS. auto.
Qed.

(* the loop of load_segments over a table of one entry: the segment is reported with the encoded fields and
   the members the rule selects among the sections loaded before *)
Theorem load_segments_loop_single st enc c (phoff es : N) secs g' f :
  is_fail st = false -> st_inv st -> phoff < 2 ^ 62 -> phoff + phdr_size c <= lenN (is_content st) ->
  g_cls g' = c -> phdr_wf g' ->
  sliceN (is_content st) phoff (phdr_size c) = phdr_bytes enc g' ->
  exists st' r,
    load_segments_loop (S f) st [] secs enc c phoff es 0 1 true [] [] = Ok (st', [r], true, []) /\
    is_fail st' = false /\ is_content st' = is_content st /\
    same_phdr g' r /\ g_sections r = map wrap16 (seg_members g' secs) /\ g_cls r = c /\ g_index r = 0.
Proof.
  intros Hf Hi Hp Hin Hc Hwf Hsl.
  destruct (load_segments_loop_step f st enc c phoff es 0 1 secs g' [] [] Hf Hi eq_refl)
    as (st' & r & -> & F1 & _ & C1 & R); rewrite ?N.mul_0_l, ?N.add_0_r; try assumption; [lia|].
  change (0 + 1) with 1. rewrite load_segments_loop_done.
  exists st', r. split; [reflexivity|]. split; [exact F1|]. split; [exact C1|exact R].
Qed.

Lemma map_wrap16_small l : Forall (fun i => i < 2 ^ 16) l -> map wrap16 l = l.
Proof.
  induction 1 as [|i t Hi HF IH]; cbn [map]; [reflexivity|]. rewrite IH. f_equal. now apply wrap_small.
Qed.

Section LaidReload.
  Variable junk : N -> N.
  Context {el : elfio} {h0 : ehdr} {g : segment} {bound : N} {ms : list section}.
  Context {el' : elfio} {h' : ehdr} {g' : segment} {ss pos1 pos2 : N}.
  Hypothesis O : oneseg el h0 g bound ms.
  Hypothesis L : laid el h0 g ms el' h' g' ss pos1 pos2.
  Hypothesis F : oneseg_file el h0 g bound ms.
  Hypothesis Hdata : forall s b, In s (el_secs el) -> s_data s = Some b -> sh_size s <= lenN b.

  Let plan := oneseg_plan h' (el_secs el') (segments_plan (e_enc h') h' [g']).
  Let file := os_bytes (exec_plan (new_ostream None) plan).

  Theorem laid_reload_data : plan_small 0 plan -> lenN file < 2 ^ 63 ->
    forall st s b r,
      In s (el_secs el') -> csize s <> 0 -> s_data s = Some b ->
      same_hdr s r -> s_data r = None -> s_stream_size r = lenN file ->
      is_fail st = false -> st_inv st -> is_content st = file ->
      stores junk st r (firstnN b (sh_size s)).
  Proof.
    intros Hsmall H63 st s b r Hin Hc Hd HS Dr SSr Hf Hi Hcon.
    destruct (proj2 (laid_file O L F Hdata) Hsmall) as ((_ & _ & FD) & _).
    apply (file_data_read_back junk file st s b r (FD s b Hin Hc Hd)); try assumption.
    exact (relaid_covered _ _ (ld_relaid L) Hdata s b Hin Hd).
  Qed.

  Hypothesis Hb62 : bound <= 2 ^ 62.
  Hypothesis Hes_eq : e_shentsize h0 = shdr_size (e_cls h0).
  Hypothesis Htls : p_type g <> PT_TLS.
  Hypothesis Hnz : Forall (fun s => sh_size s <> 0) ms.
  Hypothesis Hfree : forall j s, ~ In j (g_sections g) -> nth_optN (el_secs el) j = Some s ->
    is_tls s \/ (is_alloc s /\ sh_addr s < p_vaddr g) \/ (~ is_alloc s /\ (s_index s = 0 -> sh_offset s < e_ehsize h0 + e_phentsize h0)).
  Hypothesis Hsne : el_secs el <> [].

  (* the section header table reports every saved header; the program header table then reports the saved
     segment, and the membership pass over the reloaded sections gives it the member list it was saved with *)
  Theorem laid_reload :
    plan_small 0 plan -> phdr_wf g' ->
    (forall s, In s (el_secs el') -> s_cls s = e_cls h' /\ shdr_wf s) ->
    p_vaddr g + p_memsz g' < 2 ^ 64 -> StronglySorted N.lt (g_sections g) ->
    forall k f,
    exists st1 loaded st2 r,
      load_sections_loop junk (length (el_secs el)) (open_istream k file) [] (e_cls h') (e_enc h') (e_shoff h') (e_shentsize h')
                         0 (e_shnum h') true [] [] = Ok (st1, rev loaded, []) /\
      Forall2 (fun s x => same_hdr s x /\ s_index x = s_index s) (el_secs el') loaded /\
      load_segments_loop (S f) st1 [] loaded (e_enc h') (g_cls g') (e_phoff h') (e_phentsize h') 0 (e_phnum h') true [] [] =
        Ok (st2, [r], true, []) /\
      same_phdr g' r /\ g_sections r = g_sections g /\ g_index r = g_index g'.
  Proof.
    intros Hsmall Hpwf Hswf Hr1 Hsorted k f.
    destruct (proj2 (laid_file O L F Hdata) Hsmall) as ((_ & FS & _) & FP). fold plan file in FP, FS.
    pose proof (ld_fields L) as HL. pose proof (ld_relaid L) as HR. pose proof (og_nsec O) as Hnsec.
    pose proof (indexed_relaid _ _ HR 0 (wo_indexed (of_writes F))) as Hidx'.
    pose proof (Forall2_lenN _ _ _ HR) as Ln.
    pose proof (proj2 (laid_members O L (wo_indexed (of_writes F)) Htls Hnz Hfree Hr1) Hsorted) as MEMeq.
    destruct (headers_read_back junk file (e_cls h') (e_enc h') (e_shoff h') (e_shentsize h') (el_secs el') (length (el_secs el)) k)
      as (st1 & loaded & E1 & F1 & I1 & C1 & H2 & HIX); try assumption.
    { intro E. apply Hsne, lenN_0. rewrite <- Ln, E. reflexivity. }
    { rewrite (hl_shentsize HL), (hl_cls HL). exact Hes_eq. }
    { rewrite (hl_shentsize HL), Ln, (N.mul_comm (lenN (el_secs el))).
      pose proof (hdr_laid_shoff_le _ _ _ _ _ _ HL). pose proof (laid_end L _ (of_room F)). lia. }
    { apply Nat.eq_le_incl, Nnat.Nat2N.inj. now rewrite <- !lenN_length. }
    assert (Esn : e_shnum h' = lenN (el_secs el')) by (rewrite (hl_shnum HL), Ln; now apply wrap_small).
    rewrite <- Esn in E1.
    assert (H2i : Forall2 (fun s x => same_hdr s x /\ s_index x = s_index s) (el_secs el') loaded).
    { apply Forall2_of_nth; [exact (Forall2_lenN _ _ _ H2)|].
      intros j x Hj. destruct (Forall2_nth_l _ _ _ H2 j x Hj) as (y & Hy & R). exists y. split; [exact Hy|]. split; [exact R|].
      rewrite (HIX j y Hy), (indexed_nth _ _ _ _ Hidx' Hj), N.add_0_l.
      apply wrap_small. pose proof (nth_optN_lt _ _ _ Hj). lia. }
    pose proof (slice_full_len _ _ _ _ FP (lenN_phdr_bytes _ _) ltac:(destruct (g_cls g'); cbn; lia)) as Hpin.
    destruct (load_segments_loop_single st1 (e_enc h') (g_cls g') (e_phoff h') (e_phentsize h') loaded g' f F1 I1)
      as (st2 & r & E2 & _ & _ & SP & GS & _ & GI); try assumption; try reflexivity; rewrite ?C1; try assumption.
    { rewrite (laid_phoff O L F). pose proof (og_room O). lia. }
    exists st1, loaded, st2, r. split; [exact E1|]. split; [exact H2i|]. rewrite (hl_phnum HL). split; [exact E2|]. split; [exact SP|].
    split; [|rewrite GI, (ld_gindex L); symmetry; exact (of_gindex F)].
    rewrite GS, (seg_members_same g' (el_secs el') loaded H2i).
    rewrite MEMeq. apply map_wrap16_small. apply Forall_forall. intros i Hi.
    destruct (oneseg_member _ _ _ _ _ O i Hi) as (s & _ & P). pose proof (nth_optN_lt _ _ _ P). lia.
  Qed.
End LaidReload.
