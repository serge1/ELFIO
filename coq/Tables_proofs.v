(* Tables_proofs.v — C12 (dynamic), C14 (arrays, version indices): entries
   round-trip through the ABI encoding; the dynamic count stops at the first DT_NULL. *)
From ElfioV Require Import Bytes Mem SectionData SectionData_proofs Table Accessors Elfio_proofs.
Local Open Scope N_scope.

Definition arr_enc (e : endian) (w : N) (a : N) : bytes := enc_uint e (N.to_nat w) (wrap (8 * w) a).

Lemma arr_enc_len e w a : lenN (arr_enc e w a) = w.
Proof. unfold arr_enc. rewrite lenN_enc_uint. lia. Qed.

(* 2 ^ 61 is size_bound C64, which size_bound of either class implies (size_bound_61); these tables only
   need offsets that fit 64 bits *)
Theorem arr_roundtrip e w s es j a :
  Inv s -> 0 < w -> contents s = concat (map (arr_enc e w) es) ->
  sh_size s < 2 ^ 61 -> nth_optN es j = Some a ->
  arr_get_core e s (s_data s) w j = Ok (Some (wrap (8 * w) a)).
Proof.
  intros HI Hw HC HB Hn. pose proof (conj HI HC) as H. pose proof (arr_enc_len e w) as EL.
  unfold arr_get_core, arr_entries_num, rd_word.
  rewrite (table_num _ _ EL H Hw), (proj2 (N.leb_gt _ _) (nth_optN_lt _ _ _ Hn)).
  rewrite (table_resident _ _ EL H Hn Hw), N2Nat.id.
  rewrite (table_read64 _ _ EL H Hw (N.lt_trans _ _ (2 ^ 64) HB eq_refl) Hn). cbn [bind].
  unfold arr_enc. rewrite dec_enc_uint_small; [reflexivity|]. rewrite N2Nat.id, pow256. apply wrap_lt.
Qed.

Theorem arr_out_of_range e w s es j p :
  Inv s -> 0 < w -> contents s = concat (map (arr_enc e w) es) -> lenN es <= j ->
  arr_get_core e s p w j = Ok None.
Proof.
  intros HI Hw HC Hj. unfold arr_get_core, arr_entries_num.
  now rewrite (table_num _ _ (arr_enc_len e w) (conj HI HC) Hw), (proj2 (N.leb_le _ _) Hj).
Qed.

(* the accessor stores and reads 16-bit words in the host's order; when that
   is the file's declared order the table is the ABI table *)
Theorem versym_roundtrip_hostorder host s es j v p :
  Inv s -> contents s = concat (map (fun x => enc_uint host 2 (wrap16 x)) es) ->
  sh_size s < 2 ^ 32 -> nth_optN es j = Some v -> p = s_data s ->
  rd_word host p (j * 2) 2 = Ok (wrap16 v).
Proof.
  intros HI HC HB Hn ->. unfold rd_word. change (N.of_nat 2) with 2.
  rewrite (table_read _ 2 (fun x => lenN_enc_uint host 2 (wrap16 x)) (conj HI HC) eq_refl Hn). cbn [bind].
  rewrite dec_enc_uint_small; [reflexivity|]. exact (wrap_lt 16 v).
Qed.

Record dyn_entry := mkDynEntry { de_tag : N; de_value : N }.

Definition dyn_esz (c : cls) : N := layout_size (dyn_layout c).

(* the bytes add_entry( tag, value ) appends *)
Definition dyn_enc (c : cls) (e : endian) (d : dyn_entry) : bytes :=
  enc_fields e (dyn_layout c)
    [wrap (xw c) (de_tag d); wrap (xw c) (if dyn_tag_no_value (de_tag d) then 0 else de_value d)].

Lemma dyn_enc_len c e d : lenN (dyn_enc c e d) = dyn_esz c.
Proof. unfold dyn_enc, dyn_esz. apply lenN_enc_fields. destruct c; reflexivity. Qed.

Lemma dyn_esz_pos c : 0 < dyn_esz c.
Proof. destruct c; reflexivity. Qed.

Lemma sext_small w v : 0 < w -> v < 2 ^ (w - 1) -> sext w v = v.
Proof. intros Hw H. unfold sext. destruct (N.ltb_spec v (2 ^ (w - 1))); [reflexivity|lia]. Qed.

(* what get_entry reports: tag, and the value (0 for tags without a value),
   truncated to the class width *)
Definition dyn_view (c : cls) (d : dyn_entry) : N * N :=
  (de_tag d, if dyn_tag_no_value (de_tag d) then 0 else wrap (xw c) (de_value d)).

Theorem dyn_raw_roundtrip c e s es j d :
  Inv s -> contents s = concat (map (dyn_enc c e) es) ->
  sh_entsize s = dyn_esz c -> sh_size s < 2 ^ 61 ->
  nth_optN es j = Some d -> de_tag d < 2 ^ (xw c - 1) ->
  dyn_raw_core c e s (s_data s) j = Ok (dyn_view c d).
Proof.
  intros HI HC HE HB Hn Ht. pose proof (conj HI HC) as H. pose proof (dyn_enc_len c e) as EL.
  pose proof (dyn_esz_pos c) as Hp. pose proof (nth_optN_lt _ _ _ Hn) as Hj.
  pose proof (table_size _ _ EL H) as HS.
  assert (H64 : sh_size s < 2 ^ 64) by (eapply N.lt_trans; [exact HB|reflexivity]).
  (* the two gates before the read: index <= count - 1, offset <= size - entry size *)
  assert (B : 1 <= lenN es /\ lenN es < 2 ^ 64 /\ dyn_esz c <= sh_size s /\
              j <= lenN es - 1 /\ j * dyn_esz c <= sh_size s - dyn_esz c) by (clear - HS H64 Hj Hp; nia).
  destruct B as (B1 & B2 & B3 & B4 & B5).
  unfold dyn_raw_core.
  rewrite (table_resident _ _ EL H Hn Hp), HE.
  rewrite layout_sz_size. fold (dyn_esz c).
  rewrite N.ltb_irrefl, (proj2 (N.eqb_neq _ 0)) by lia.
  rewrite (table_num _ _ EL H Hp), (table_off64 _ _ EL H H64 Hj).
  rewrite (wrap64_sub _ 1), (wrap64_sub (sh_size s)) by assumption.
  rewrite (proj2 (N.ltb_ge _ _) B4), (proj2 (N.ltb_ge _ _) B5).
  rewrite (table_read _ _ EL H Hp Hn). cbn [bind].
  unfold dyn_enc. rewrite dec_enc_fields_fit by (destruct c; repeat constructor; apply wrap_lt).
  change (nthN [?a; ?b] 0 0) with a. change (nthN [?a; ?b] 1 0) with b.
  rewrite (wrap_small (xw c) (de_tag d)) by (eapply N.lt_le_trans; [exact Ht|apply N.pow_le_mono_r; lia]).
  rewrite sext_small by (assumption || now destruct c).
  unfold dyn_view. now destruct (dyn_tag_no_value (de_tag d)).
Qed.

(* index of the first DT_NULL entry, or the length *)
Fixpoint first_null (es : list dyn_entry) : N :=
  match es with
  | [] => 0
  | d :: t => if de_tag d =? DT_NULL then 0 else 1 + first_null t
  end.

Lemma first_null_le es : first_null es <= lenN es.
Proof. induction es as [|d t IH]; cbn [first_null]; [cbn; lia|]. rewrite lenN_cons. destruct (de_tag d =? DT_NULL); lia. Qed.

Theorem dyn_count_first_null c e s es fuel i :
  holds_table (dyn_enc c e) s es ->
  sh_entsize s = dyn_esz c -> sh_size s < 2 ^ 61 ->
  Forall (fun d => de_tag d < 2 ^ (xw c - 1)) es ->
  i <= lenN es -> lenN es - i < lenN fuel ->
  dyn_count_core fuel c e s (s_data s) i (lenN es) = Ok (i + first_null (skipnN es i)).
Proof.
  intros [HI HC] HE HB Ht. revert i.
  induction fuel as [|x f IH]; intros i Hi Hf; [cbn in Hf; lia|].
  cbn [dyn_count_core].
  destruct (N.ltb_spec i (lenN es)) as [Hlt|Hge].
  - destruct (nth_optN_some es i Hlt) as [d En].
    rewrite (dyn_raw_roundtrip c e s es i d HI HC HE HB En (Forall_nth_optN _ _ _ _ Ht En)). unfold dyn_view. cbn [bind].
    rewrite (skipnN_nth _ _ _ En). cbn [first_null].
    destruct (de_tag d =? DT_NULL); [f_equal; lia|].
    rewrite IH; [f_equal; lia|lia|rewrite lenN_cons in Hf; lia].
  - assert (i = lenN es) by lia. subst i. rewrite skipnN_all by lia. cbn [first_null]. f_equal. lia.
Qed.
