(* Arrange_proofs.v — C10: the two-cursor arrangement of local symbols is a
   partition, a permutation, and its swap log keeps every index on target. *)
From ElfioV Require Import Bytes Mem SectionData SectionData_proofs Elfio Table Accessors Symbols_proofs.
From ElfioV Require Export Elfio_proofs.
From Coq Require Import Permutation.
Local Open Scope N_scope.

Definition swapL {A} (l : list A) (i j : N) : list A :=
  match nth_optN l i, nth_optN l j with
  | Some x, Some y => updN (updN l i y) j x
  | _, _ => l
  end.
Lemma lenN_swapL {A} (l : list A) i j : lenN (swapL l i j) = lenN l.
Proof. unfold swapL. destruct (nth_optN l i), (nth_optN l j); try reflexivity. now rewrite !lenN_updN. Qed.

Definition swap1 (a b r : N) : N := if r =? a then b else if r =? b then a else r.

Lemma swap1_involutive a b x : swap1 a b (swap1 a b x) = x.
Proof.
  unfold swap1. destruct (N.eqb_spec x a) as [->|H1].
  - destruct (N.eqb_spec b a) as [->|H2]; [reflexivity|]. now rewrite N.eqb_refl.
  - destruct (N.eqb_spec x b) as [->|H2].
    + now rewrite N.eqb_refl.
    + destruct (N.eqb_spec x a); [contradiction|]. destruct (N.eqb_spec x b); [contradiction|reflexivity].
Qed.

Lemma nth_swapL {A} (l : list A) i j q : i < lenN l -> j < lenN l -> i <> j ->
  nth_optN (swapL l i j) (swap1 i j q) = nth_optN l q.
Proof.
  intros Hi Hj Hne. unfold swapL.
  destruct (nth_optN_some l i Hi) as [x Hx]. destruct (nth_optN_some l j Hj) as [y Hy]. rewrite Hx, Hy.
  unfold swap1. destruct (N.eqb_spec q i) as [->|Hqi].
  - rewrite nth_optN_updN_same by (rewrite lenN_updN; exact Hj). now rewrite Hx.
  - destruct (N.eqb_spec q j) as [->|Hqj].
    + rewrite nth_optN_updN_other by lia. rewrite nth_optN_updN_same by exact Hi. now rewrite Hy.
    + rewrite !nth_optN_updN_other by lia. reflexivity.
Qed.
Lemma nth_swapL_other {A} (l : list A) i j k : k <> i -> k <> j -> nth_optN (swapL l i j) k = nth_optN l k.
Proof.
  intros H1 H2. unfold swapL. destruct (nth_optN l i), (nth_optN l j); try reflexivity.
  rewrite !nth_optN_updN_other by lia. reflexivity.
Qed.
Lemma nth_swapL_left {A} (l : list A) i j y : i < lenN l -> i <> j -> nth_optN l j = Some y -> nth_optN (swapL l i j) i = Some y.
Proof.
  intros Hi Hne Hy. pose proof (nth_optN_lt _ _ _ Hy) as Hj.
  rewrite <- Hy. rewrite <- (nth_swapL l i j j Hi Hj Hne). unfold swap1.
  destruct (N.eqb_spec j i); [lia|]. now rewrite N.eqb_refl.
Qed.

Lemma swapL_perm {A} (l : list A) i j : Permutation (swapL l i j) l.
Proof.
  unfold swapL. destruct (nth_optN l i) as [x|] eqn:Hx; [|reflexivity].
  destruct (nth_optN l j) as [y|] eqn:Hy; [|reflexivity].
  destruct (N.eq_dec i j) as [->|Hne].
  - assert (x = y) by congruence. subst y. now rewrite updN_updN, (updN_same _ _ _ Hx).
  - destruct (updN_split l i x y Hx) as (l1 & l2 & E & Hl & Hu). rewrite Hu.
    assert (Hy' : nth_optN (l1 ++ y :: l2) j = Some y).
    { rewrite <- Hu. rewrite nth_optN_updN_other by exact Hne. exact Hy. }
    destruct (updN_split _ j y x Hy') as (m1 & m2 & E2 & Hm & Hu2). rewrite Hu2.
    (* l1 ++ y :: l2 = m1 ++ y :: m2, and the result is m1 ++ x :: m2 *)
    transitivity (x :: m1 ++ m2); [symmetry; apply Permutation_middle|].
    transitivity (x :: l1 ++ l2).
    + apply perm_skip. apply Permutation_cons_inv with (a := y).
      transitivity (m1 ++ y :: m2); [apply Permutation_middle|]. rewrite <- E2. symmetry. apply Permutation_middle.
    + rewrite E. apply Permutation_middle.
Qed.

Definition retarget (log : list (N * N)) (r : N) : N := fold_left (fun q p => swap1 (fst p) (snd p) q) log r.
Definition apply_swaps {A} (log : list (N * N)) (l : list A) : list A :=
  fold_left (fun l p => swapL l (fst p) (snd p)) log l.
Definition swaps_in (n : N) (log : list (N * N)) : Prop :=
  Forall (fun p => 1 <= fst p /\ fst p < snd p /\ snd p < n) log.

Lemma apply_swaps_perm {A} log : forall l : list A, Permutation (apply_swaps log l) l.
Proof.
  induction log as [|p t IH]; intro l; cbn [apply_swaps fold_left]; [reflexivity|].
  fold (apply_swaps t (swapL l (fst p) (snd p))). rewrite IH. apply swapL_perm.
Qed.
Lemma apply_swaps_len {A} log : forall l : list A, lenN (apply_swaps log l) = lenN l.
Proof. intro l. rewrite !lenN_length. f_equal. apply Permutation_length, apply_swaps_perm. Qed.
Lemma apply_swaps_first {A} log : forall l : list A, swaps_in (lenN l) log ->
  nth_optN (apply_swaps log l) 0 = nth_optN l 0.
Proof.
  induction log as [|p t IH]; intros l H; cbn [apply_swaps fold_left]; [reflexivity|].
  fold (apply_swaps t (swapL l (fst p) (snd p))). inversion H as [|? ? (P1 & P2 & P3) Ht]; subst.
  rewrite IH by (rewrite lenN_swapL; exact Ht). apply nth_swapL_other; lia.
Qed.
Lemma apply_swaps_retarget {A} log : forall (l : list A) q, swaps_in (lenN l) log ->
  nth_optN (apply_swaps log l) (retarget log q) = nth_optN l q.
Proof.
  induction log as [|p t IH]; intros l q H; cbn [apply_swaps retarget fold_left]; [reflexivity|].
  fold (apply_swaps t (swapL l (fst p) (snd p))). fold (retarget t (swap1 (fst p) (snd p) q)).
  inversion H as [|? ? (P1 & P2 & P3) Ht]; subst.
  rewrite IH by (rewrite lenN_swapL; exact Ht). apply nth_swapL; lia.
Qed.

Lemma enc_uint_one e v : enc_uint e 1 v = [v mod 256].
Proof. destruct e; reflexivity. Qed.

Section Arrange.
  Context {E : Type}.
  Variable enc : E -> bytes.
  Variable c : cls.
  Variable locE : E -> bool.
  Let esz := layout_sz (sym_layout c).
  Let ioff := sym_info_off c.
  Hypothesis enc_len : forall x, lenN (enc x) = esz.
  Hypothesis enc_loc : forall x, (N.shiftr (nthN (enc x) ioff 0) 4 =? STB_LOCAL) = locE x.

  Lemma ioff_lt : ioff < esz.
  Proof. unfold ioff, esz. now destruct c. Qed.

  Lemma rd_info es tl i x : nth_optN es i = Some x ->
    rd (Some (tbl enc es tl)) (i * esz + ioff) 1 = Ok [nthN (enc x) ioff 0].
  Proof.
    intros H. pose proof (nth_optN_lt _ _ _ H) as Hi. pose proof ioff_lt as Ho.
    rewrite rd_some by (rewrite (lenN_tbl _ _ enc_len); nia).
    unfold tbl. rewrite sliceN_app_l by (rewrite (lenN_concat_enc enc esz enc_len); nia).
    rewrite <- (sliceN_sliceN _ (i * esz) esz ioff 1) by lia.
    rewrite (slice_concat_enc enc esz enc_len es i x H).
    f_equal. apply sliceN_one. rewrite enc_len. exact Ho.
  Qed.

  Definition first_from (es : list E) (want : bool) (i r : N) : Prop :=
    i <= r <= N.max i (lenN es) /\
    (forall k x, i <= k < r -> nth_optN es k = Some x -> locE x = negb want) /\
    (r < lenN es -> exists x, nth_optN es r = Some x /\ locE x = want).

  Lemma scan_spec fuel (es : list E) tl want : forall i,
    lenN es * esz < 2 ^ 64 -> lenN es < i + lenN fuel ->
    exists r, scan_bind fuel (Some (tbl enc es tl)) c esz want i (lenN es) = Ok r /\ first_from es want i r.
  Proof.
    assert (Hstop : forall i, lenN es <= i -> exists r, Ok i = Ok r /\ first_from es want i r).
    { intros i Hi. exists i. repeat split; intros; lia. }
    induction fuel as [|u f IH]; intros i H64 Hf; cbn [scan_bind].
    { cbn [lenN] in Hf. rewrite (proj2 (N.ltb_ge _ _)) by lia. apply Hstop. lia. }
    rewrite lenN_cons in Hf. destruct (N.ltb_spec i (lenN es)) as [Hi|Hi]; [|now apply Hstop].
    destruct (nth_optN_some es i Hi) as [x Hx].
    rewrite (entry_off64 _ _ i H64 Hi). fold ioff. rewrite (rd_info es tl i x Hx). cbn [bind nthN N.eqb].
    rewrite enc_loc. destruct (Bool.eqb (locE x) want) eqn:Eb.
    - apply Bool.eqb_prop in Eb. exists i. split; [reflexivity|]. split; [lia|]. split; [intros; lia|eauto].
    - destruct (IH (i + 1) H64 ltac:(lia)) as (r & -> & R1 & R4 & R5).
      exists r. split; [reflexivity|]. split; [lia|]. split; [|exact R5]. intros k y Hk Hy.
      destruct (N.eq_dec k i) as [->|Hne]; [|apply (R4 k y); [lia|exact Hy]].
      rewrite Hx in Hy. injection Hy as <-. now destruct (locE x), want.
  Qed.

  Definition locals_upto (es : list E) (f : N) : Prop :=
    forall k x, 1 <= k -> k < f -> nth_optN es k = Some x -> locE x = true.
  Definition nonlocals_from (es : list E) (f : N) : Prop :=
    forall k x, f <= k -> nth_optN es k = Some x -> locE x = false.
  Definition nonloc_at (es : list E) (k : N) : bool :=
    match nth_optN es k with Some x => negb (locE x) | None => false end.
  (* two units of fuel for every position still to be classified, and one more while a non-local waits at fnl *)
  Definition mu (es : list E) (fnl : N) : N := 2 * (lenN es - fnl) + (if nonloc_at es fnl then 1 else 0).

  Lemma locals_upto_extend es f f' : locals_upto es f ->
    (forall k x, f <= k < f' -> nth_optN es k = Some x -> locE x = true) -> locals_upto es f'.
  Proof. intros H1 H2 k x Hk1 Hk2 Hx. destruct (N.lt_ge_cases k f); [now apply (H1 k x)|apply (H2 k x); [lia|exact Hx]]. Qed.

  Lemma locals_upto_swap es f i j : locals_upto es f -> f <= i -> f <= j -> locals_upto (swapL es i j) f.
  Proof. intros H Hi Hj k z Hk1 Hk2 Hz. rewrite nth_swapL_other in Hz by lia. now apply (H k z). Qed.

  (* a swap brings a local to position i: the measure drops *)
  Lemma mu_swap es f i j x y : f <= i -> i < lenN es -> i <> j ->
    nth_optN es i = Some x -> locE x = false -> nth_optN es j = Some y -> locE y = true ->
    mu (swapL es i j) i < mu es f.
  Proof.
    intros Hf Hi Hne Hx Lx Hy Ly. unfold mu, nonloc_at.
    rewrite lenN_swapL, (nth_swapL_left es i j y Hi Hne Hy), Ly. cbn [negb].
    destruct (N.eq_dec i f) as [->|]; [rewrite Hx, Lx; cbn [negb]|destruct (nth_optN es f) as [z|]; [destruct (locE z)|]]; lia.
  Qed.

  Lemma loop_spec fuel : forall (es : list E) tl fnl log,
    lenN es * esz < 2 ^ 64 -> 1 <= fnl <= lenN es ->
    locals_upto es fnl -> mu es fnl < lenN fuel ->
    exists r log',
      arrange_loop fuel (Some (tbl enc es tl)) c esz (lenN es) fnl log
        = Ok (Some (tbl enc (apply_swaps log' es) tl), r, log ++ log') /\
      fnl <= r <= lenN es /\ locals_upto (apply_swaps log' es) r /\ nonlocals_from (apply_swaps log' es) r /\
      swaps_in (lenN es) log'.
  Proof.
    induction fuel as [|u f IH]; intros es tl fnl log H64 Hfnl Hloc Hmu; [cbn [lenN] in Hmu; lia|].
    rewrite lenN_cons in Hmu. cbn [arrange_loop]. pose proof (sym_esz_val c : esz = _) as Hesz. pose proof (sym_esz_pos c : 0 < esz) as Hp.
    (* the fuel the model hands a scan is the buffer and one more unit; the loop gets two more: entries
       are at least 16 bytes long, so this exceeds the count, and twice the count for mu *)
    assert (Hfuel : forall i, lenN es < i + lenN (0 :: tbl enc es tl)) by (intro i; rewrite lenN_cons, (lenN_tbl _ _ enc_len); nia).
    destruct (scan_spec (0 :: tbl enc es tl) es tl false fnl H64 (Hfuel _)) as (fnl1 & -> & A1 & A4 & A5). cbn [bind].
    pose proof (locals_upto_extend es fnl fnl1 Hloc A4) as Hloc1.
    replace (wrap64 (fnl1 + 1)) with (fnl1 + 1) by (symmetry; apply wrap_small; clear - H64 Hfnl A1 Hesz; destruct c; nia).
    destruct (scan_spec (0 :: tbl enc es tl) es tl true (fnl1 + 1) H64 (Hfuel _)) as (cur & -> & B1 & B4 & B5). cbn [bind].
    destruct ((fnl1 <? lenN es) && (cur <? lenN es)) eqn:Hgo.
    - (* a non-local at fnl1 and a local at cur behind it: swap them and go on *)
      apply andb_prop in Hgo as [Hf1 Hc]. apply N.ltb_lt in Hf1, Hc.
      destruct (A5 Hf1) as (x & Hx & Lx). destruct (B5 Hc) as (y & Hy & Ly).
      rewrite (entry_off64 _ _ fnl1 H64 Hf1), (entry_off64 _ _ cur H64 Hc). fold esz.
      rewrite (rd_entry _ _ enc_len es tl fnl1 x Hx), (rd_entry _ _ enc_len es tl cur y Hy). cbn [bind].
      rewrite (wr_entry _ _ enc_len es tl fnl1 x y Hx). cbn [bind].
      rewrite (wr_entry _ _ enc_len (updN es fnl1 y) tl cur y x) by (rewrite nth_optN_updN_other by lia; exact Hy). cbn [bind].
      replace (updN (updN es fnl1 y) cur x) with (swapL es fnl1 cur) by (unfold swapL; now rewrite Hx, Hy).
      set (es1 := swapL es fnl1 cur). pose proof (lenN_swapL es fnl1 cur : lenN es1 = lenN es) as L1.
      pose proof (locals_upto_swap es fnl1 fnl1 cur Hloc1 (N.le_refl _) ltac:(lia)) as Hloc'.
      pose proof (mu_swap es fnl fnl1 cur x y ltac:(lia) Hf1 ltac:(lia) Hx Lx Hy Ly) as Hmu1. fold es1 in Hloc', Hmu1.
      rewrite <- L1 in H64 |- *.
      destruct (IH es1 tl fnl1 (log ++ [(fnl1, cur)]) H64 ltac:(lia) Hloc' ltac:(lia)) as (r & log2 & -> & R1 & R2 & R3 & R4).
      exists r, ((fnl1, cur) :: log2). rewrite <- app_assoc. split; [reflexivity|]. split; [lia|]. split; [exact R2|].
      split; [exact R3|]. constructor; [cbn [fst snd]; lia|exact R4].
    - (* no non-local left, or no local behind the first one *)
      exists fnl1, []. rewrite app_nil_r. change (apply_swaps [] es) with es. split; [reflexivity|]. split; [lia|]. split; [exact Hloc1|]. split; [|constructor].
      intros k z Hk Hz. pose proof (nth_optN_lt _ _ _ Hz) as Hkl.
      apply andb_false_iff in Hgo. rewrite !N.ltb_ge in Hgo.
      destruct (N.eq_dec k fnl1) as [->|Hne]; [destruct (A5 Hkl) as (x & Hx & Lx); congruence|].
      apply (B4 k z); [lia|exact Hz].
  Qed.

  (* what arranging es leaves: the same entries with the null entry in place, locals at 1..r-1 and the
     others from r on, and a swap log that carries every old index to where its entry now is *)
  Definition arranged (es es' : list E) (r : N) (log : list (N * N)) : Prop :=
    Permutation es' es /\ lenN es' = lenN es /\ nth_optN es' 0 = nth_optN es 0 /\
    1 <= r /\ r <= lenN es /\ locals_upto es' r /\ nonlocals_from es' r /\
    (forall q, nth_optN es' (retarget log q) = nth_optN es q) /\ swaps_in (lenN es) log.

  Lemma arranged_perm {es es' r log} : arranged es es' r log -> Permutation es' es.
  Proof. intros H. apply H. Qed.
  Lemma arranged_retarget {es es' r log} : arranged es es' r log -> forall q, nth_optN es' (retarget log q) = nth_optN es q.
  Proof. intros H. apply H. Qed.
  Lemma arranged_swaps {es es' r log} : arranged es es' r log -> swaps_in (lenN es) log.
  Proof. intros H. apply H. Qed.

  (* the whole loop as arrange_local_symbols runs it: first_not_local = 1, empty log *)
  Theorem arrange_loop_correct (es : list E) tl :
    1 <= lenN es -> lenN es * esz < 2 ^ 64 ->
    exists es' r log,
      arrange_loop (0 :: 0 :: tbl enc es tl) (Some (tbl enc es tl)) c esz (lenN es) 1 [] = Ok (Some (tbl enc es' tl), r, log) /\
      arranged es es' r log.
  Proof.
    intros H1 H64. pose proof (sym_esz_val c : esz = _) as Hesz.
    destruct (loop_spec (0 :: 0 :: tbl enc es tl) es tl 1 [] H64 ltac:(lia)) as (r & log & -> & E3 & E5 & E6 & E7).
    - intros k x ? ?; lia.
    - unfold mu. rewrite !lenN_cons, (lenN_tbl _ _ enc_len). clear - H1 Hesz. destruct (nonloc_at es 1), c; nia.
    - exists (apply_swaps log es), r, log. split; [reflexivity|].
      split; [apply apply_swaps_perm|]. split; [apply apply_swaps_len|]. split; [now apply apply_swaps_first|].
      split; [apply E3|]. split; [apply E3|]. split; [exact E5|]. split; [exact E6|].
      split; [|exact E7]. intro q. now apply apply_swaps_retarget.
  Qed.
End Arrange.

Definition sym_is_local (x : sym) : bool := N.shiftr (st_info x mod 256) 4 =? STB_LOCAL.

Lemma enc_sym_local c e x : (N.shiftr (nthN (enc_sym c e x) (sym_info_off c) 0) 4 =? STB_LOCAL) = sym_is_local x.
Proof.
  unfold sym_is_local. f_equal. f_equal.
  destruct c; unfold enc_sym, sym_info_off, sym_layout; cbn [enc_fields].
  - do 3 (rewrite nthN_app_ge by (rewrite lenN_enc_uint; cbn; lia); rewrite lenN_enc_uint).
    rewrite enc_uint_one. reflexivity.
  - rewrite nthN_app_ge by (rewrite lenN_enc_uint; cbn; lia). rewrite lenN_enc_uint.
    rewrite enc_uint_one. reflexivity.
Qed.

Theorem arrange_local_symbols_arranged junk el symsec el1 s s1 c e (syms : list sym) tl :
  sec_data junk el symsec = Ok (el1, Some (tbl (enc_sym c e) syms tl), s) ->          (* the table's bytes are resident *)
  acls el1 = c -> sh_entsize s = sym_esz c -> get_symbols_num el1 s = lenN syms ->
  get_sec el1 symsec = Some s1 ->
  1 <= lenN syms -> lenN syms * sym_esz c < 2 ^ 64 ->
  exists s2 syms' r log,
    arrange_local_symbols junk el symsec = Ok (upd_sec el1 symsec s2, r, log) /\
    get_sec (upd_sec el1 symsec s2) symsec = Some s2 /\ s_data s2 = Some (tbl (enc_sym c e) syms' tl) /\
    sh_info s2 = wrap32 r /\ arranged sym_is_local syms syms' r log.
Proof.
  intros Hd Hc He Hn Hg H1 H64.
  destruct (arrange_loop_correct (enc_sym c e) c sym_is_local (enc_sym_len c e) (enc_sym_local c e) syms tl H1 H64)
    as (syms' & r & log & HL & A).
  rewrite layout_sz_size in HL. fold (sym_esz c) in HL.
  unfold arrange_local_symbols. rewrite Hd. cbn [bind]. rewrite Hc, He, Hn, HL. cbn [bind]. rewrite Hg.
  eexists _, syms', r, log. split; [reflexivity|].
  split; [apply get_upd_sec, (get_sec_lt _ _ _ Hg)|]. split; [reflexivity|]. split; [reflexivity|exact A].
Qed.

(* the same with the postcondition written out *)
Theorem arrange_local_symbols_correct junk el symsec el1 s s1 c e (syms : list sym) tl :
  let esz := layout_sz (sym_layout c) in
  let tb := fun l => tbl (enc_sym c e) l tl in
  sec_data junk el symsec = Ok (el1, Some (tb syms), s) ->
  acls el1 = c -> sh_entsize s = esz -> get_symbols_num el1 s = lenN syms ->
  get_sec el1 symsec = Some s1 ->
  1 <= lenN syms -> lenN syms * esz < 2 ^ 64 ->
  exists el2 s2 syms' r log,
    arrange_local_symbols junk el symsec = Ok (el2, r, log) /\
    get_sec el2 symsec = Some s2 /\ s_data s2 = Some (tb syms') /\ sh_info s2 = wrap32 r /\
    Permutation syms' syms /\ lenN syms' = lenN syms /\ nth_optN syms' 0 = nth_optN syms 0 /\
    1 <= r /\ r <= lenN syms /\
    locals_upto sym_is_local syms' r /\ nonlocals_from sym_is_local syms' r /\
    (forall q, nth_optN syms' (retarget log q) = nth_optN syms q) /\
    swaps_in (lenN syms) log /\ el2 = upd_sec el1 symsec s2.
Proof.
  cbv zeta. intros Hd Hc He Hn Hg H1 H64.
  destruct (arrange_local_symbols_arranged junk el symsec el1 s s1 c e syms tl Hd Hc He Hn Hg H1 H64)
    as (s2 & syms' & r & log & EA & G2 & D2 & I2 & P1 & P2 & P3 & P4 & P5 & P6 & P7 & P8 & P9).
  exists (upd_sec el1 symsec s2), s2, syms', r, log. auto 15.
Qed.
