(* Properties_C06.v — C06: saving is deterministic and idempotent. *)
From ElfioV Require Import Bytes Mem Stream SectionData Strings Elfio Table Loader Layout Writer Layout_proofs Segment_proofs Oneseg_proofs Oneseg_again Accessors ByName_proofs Save_twice Oneseg_writer Save_twice_oneseg Oneseg_members Reader_proofs Writer_proofs.
From Coq Require Import Sorted.
Local Open Scope N_scope.

(* save() is a function of the object and the stream: the model has no hidden
   state, so the same object yields the same bytes (determinism holds by
   construction of the model; that the implementation has no hidden state
   either is what the differential double-save run checks). *)
Theorem C06_deterministic :
  forall junk el os r1 r2, save junk el os = r1 -> save junk el os = r2 -> r1 = r2.
Proof. intros; congruence. Qed.
Print Assumptions C06_deterministic.

(* The first save records the offsets it chose; the second pass re-derives
   exactly the same layout from them (objects without segments). *)
Theorem C06_second_layout_is_identity :
  forall el h0 bound,
    el_hdr el = Some h0 -> el_segs el = [] ->
    bound <= 2 ^ 64 -> Forall (fun s => bound <= 2 ^ xw (s_cls s)) (el_secs el) ->
    e_ehsize h0 + budget (el_secs el) + 16 < bound ->
    exists el', layout el = Ok (el', true) /\ layout el' = Ok (el', true).
Proof.
  intros el h0 bound H1 H2 H3 H4 H5.
  destruct (layout_noseg el h0 bound H1 H2 H3 H4 H5) as (el' & ? & ? & ? & E & _ & _ & _ & _ & _ & _ & _ & E2). eauto.
Qed.
Print Assumptions C06_second_layout_is_identity.

(* the section placement loop alone, for any position and any section list *)
Theorem C06_free_sections_idempotent :
  forall todo pre pos todo' pos',
    layout_free_sections [] (pre ++ todo) (lenN pre) todo pos = (pre ++ todo', pos') ->
    layout_free_sections [] (pre ++ todo') (lenN pre) todo' pos = (pre ++ todo', pos').
Proof. exact lfs_idempotent. Qed.
Print Assumptions C06_free_sections_idempotent.

(* A segment of automatically addressed, non-empty allocated data members: the
   first pass records addresses and offsets; a second pass from the same file
   position, with fresh "generated" flags, re-derives exactly the same segment
   and sections (the gaps now come from the recorded addresses). *)
Theorem C06_segment_second_pass_is_identity :
  forall h g secs gen pos bound ms g' secs' gen' pos',
    let idxs := g_sections g in
    let align := if 0 <? p_align g then p_align g else 1 in
    lenN idxs < 2 ^ 16 -> idxs <> [] ->
    g_offset_set g = false -> p_type g <> PT_PHDR ->
    NoDup idxs -> Forall2 (fun i s => nth_optN secs i = Some s) idxs ms ->
    Forall auto_member ms -> Forall (fun s => bound <= 2 ^ xw (s_cls s)) ms -> Forall (fun s => sh_size s <> 0) ms ->
    (forall i, In i idxs -> nth_optN gen i = Some false) ->
    bound <= 2 ^ 63 -> bound <= 2 ^ xw (g_cls g) -> p_align g < 2 ^ 63 ->
    p_vaddr g + pos + align + mbudget ms < bound -> 0 < pos ->
    layout_one_segment h g secs gen pos = Ok (g', secs', gen', pos', true) ->
    exists gen'', layout_one_segment h g' secs' gen pos = Ok (g', secs', gen'', pos', true).
Proof. exact layout_one_segment_again. Qed.
Print Assumptions C06_segment_second_pass_is_identity.

(* ... and the whole layout step for an object with ONE such segment plus any sections outside it (the class of
   C04_layout_with_one_segment): the second save() starts from the object the first one left - header with the
   table offsets, segment with its offset and sizes, sections with their offsets and addresses - and re-derives
   exactly that object, so it plans exactly the same writes *)
Theorem C06_second_layout_is_identity_one_segment :
  forall el h0 g bound ms,
    let idxs := g_sections g in
    let align := if 0 <? p_align g then p_align g else 1 in
    let secs := el_secs el in
    let pos0 := e_ehsize h0 + e_phentsize h0 in
    el_hdr el = Some h0 -> el_segs el = [g] -> lenN secs < 2 ^ 16 ->
    lenN idxs < 2 ^ 16 -> idxs <> [] -> g_offset_set g = false -> p_type g <> PT_PHDR -> NoDup idxs ->
    Forall2 (fun i s => nth_optN secs i = Some s) idxs ms ->
    Forall auto_member ms -> Forall (fun s => sh_addralign s <= p_align g) ms -> Forall (fun s => sh_size s <> 0) ms ->
    bound <= 2 ^ 63 -> Forall (fun s => bound <= 2 ^ xw (s_cls s)) secs -> bound <= 2 ^ xw (g_cls g) ->
    p_align g < 2 ^ 63 -> 0 < pos0 ->
    p_vaddr g + pos0 + align + mbudget ms + budget secs + 16 < bound ->
    exists el', layout el = Ok (el', true) /\ layout el' = Ok (el', true).
Proof.
  intros el h0 g bound ms. cbv zeta. intros. apply (layout_oneseg_twice el h0 g bound ms); try assumption.
  constructor; try assumption; lia.
Qed.
Print Assumptions C06_second_layout_is_identity_one_segment.

(* From the layout to the bytes.  Let a first save() of el0 succeed in forcing the data (results sta/secsa,
   stb/segsb) and in laying the object out as el1, let the layout step be the identity on el1 (the theorems above),
   and let data requests leave el1's sections and segments as they are (sections: [quiet], true of every section
   after its first get_data(), C09_quiet_after_first_request; segments: [seg_stable]).  Then a second save() - of
   the object the first one left, into the same kind of stream - writes exactly the same bytes, returns the same
   verdict and leaves the same object. *)
Theorem C06_second_save_writes_the_same_bytes :
  forall junk el0 os el1 sta secsa stb segsb h,
    os_bad os = false -> el_hdr el0 = Some h ->
    force_sections junk (el_stream el0) (el_xlat el0) (el_secs el0) [] = Ok (sta, secsa) ->
    force_segments sta (el_xlat el0) (el_segs el0) [] = Ok (stb, segsb) ->
    layout (with_stream (with_segs (with_secs el0 secsa) segsb) stb) = Ok (el1, true) ->
    layout el1 = Ok (el1, true) ->
    Forall quiet (el_secs el1) -> Forall offset_norm (el_secs el1) ->
    Forall (seg_stable (el_stream el1) (el_xlat el1)) (el_segs el1) ->
    forall r, save junk el0 os = Ok r -> save junk el1 os = Ok (el1, snd (fst r), snd r).
Proof. exact save_twice_identical. Qed.
Print Assumptions C06_second_save_writes_the_same_bytes.

(* all of it discharged for objects without segments whose sections have been requested (or saved) before:
   whatever save() returned - object, stream, verdict - saving the returned object returns again *)
Theorem C06_second_save_identical_without_segments :
  forall junk el0 os h0 bound,
    os_bad os = false -> el_hdr el0 = Some h0 -> el_segs el0 = [] -> Forall quiet (el_secs el0) ->
    bound <= 2 ^ 64 -> Forall (fun s => bound <= 2 ^ xw (s_cls s)) (el_secs el0) ->
    e_ehsize h0 + budget (el_secs el0) + 16 < bound ->
    forall r, save junk el0 os = Ok r -> save junk (fst (fst r)) os = Ok r.
Proof. exact save_twice_noseg. Qed.
Print Assumptions C06_second_save_identical_without_segments.

(* ... and for objects with one segment of automatically addressed, non-empty allocated data members plus free
   sections, built through the API (the segment record holds no data and came from no stream; no address
   translation), whose sections have been requested before *)
Theorem C06_second_save_identical_one_segment :
  forall junk el0 os h0 g bound ms,
    let idxs := g_sections g in
    let align := if 0 <? p_align g then p_align g else 1 in
    let secs := el_secs el0 in
    let pos0 := e_ehsize h0 + e_phentsize h0 in
    os_bad os = false -> xlat_empty (el_xlat el0) = true ->
    el_hdr el0 = Some h0 -> el_segs el0 = [g] -> lenN secs < 2 ^ 16 ->
    lenN idxs < 2 ^ 16 -> idxs <> [] -> g_offset_set g = false -> p_type g <> PT_PHDR -> NoDup idxs ->
    Forall2 (fun i s => nth_optN secs i = Some s) idxs ms ->
    Forall auto_member ms -> Forall (fun s => sh_addralign s <= p_align g) ms -> Forall (fun s => sh_size s <> 0) ms ->
    bound <= 2 ^ 63 -> Forall (fun s => bound <= 2 ^ xw (s_cls s)) secs -> bound <= 2 ^ xw (g_cls g) ->
    p_align g < 2 ^ 63 -> 0 < pos0 ->
    p_vaddr g + pos0 + align + mbudget ms + budget secs + 16 < bound ->
    Forall quiet secs -> g_data g = None -> g_stream_size g = 0 -> g_loaded g = false ->
    (forall s, In s secs -> s_index s = 0 -> csize s = 0) ->
    forall r, save junk el0 os = Ok r -> save junk (fst (fst r)) os = Ok r.
Proof.
  intros junk el0 os h0 g bound ms. cbv zeta. intros. apply (save_twice_oneseg junk el0 os h0 g bound ms); try assumption.
  constructor; try assumption; lia.
Qed.
Print Assumptions C06_second_save_identical_one_segment.

(* what a load of the saved file makes of the segment.  load() rebuilds the member list from the headers alone
   (C02_membership_rule: seg_members = the sections that member_spec accepts, in index order).  Applied to the
   segment and the section headers as the layout above leaves them - which are the ones the file carries - the
   rule accepts exactly the sections the segment was saved with (members: non-empty, allocated, not thread-local;
   the other sections: thread-local, or allocated below the segment, or not allocated), and when the member list
   was in index order the reloaded list IS the saved list - the premise the second save of the reloaded object
   needs.  (Where the member list was not in index order the reloaded list differs: the open finding
   member-order.) *)
Theorem C06_reload_recovers_members_one_segment :
  forall el h0 g bound ms,
    let idxs := g_sections g in
    let align := if 0 <? p_align g then p_align g else 1 in
    let secs := el_secs el in
    let pos0 := e_ehsize h0 + e_phentsize h0 in
    el_hdr el = Some h0 -> el_segs el = [g] -> lenN secs < 2 ^ 16 ->
    lenN idxs < 2 ^ 16 -> idxs <> [] -> g_offset_set g = false -> p_type g <> PT_PHDR -> NoDup idxs ->
    Forall2 (fun i s => nth_optN secs i = Some s) idxs ms ->
    Forall auto_member ms -> Forall (fun s => sh_addralign s <= p_align g) ms ->
    bound <= 2 ^ 64 -> Forall (fun s => bound <= 2 ^ xw (s_cls s)) secs -> bound <= 2 ^ xw (g_cls g) ->
    p_align g < 2 ^ 63 ->
    p_vaddr g + pos0 + align + mbudget ms + budget secs + 16 < bound ->
    indexed_from 0 secs -> p_type g <> PT_TLS -> Forall (fun s => sh_size s <> 0) ms ->
    (forall j s, ~ In j idxs -> nth_optN secs j = Some s ->
       is_tls s \/ (is_alloc s /\ sh_addr s < p_vaddr g) \/ (~ is_alloc s /\ (s_index s = 0 -> sh_offset s < pos0))) ->
    exists el' g',
      layout el = Ok (el', true) /\ el_segs el' = [g'] /\ g_sections g' = idxs /\ indexed_from 0 (el_secs el') /\
      (p_vaddr g + p_memsz g' < 2 ^ 64 ->
         (forall j, In j (seg_members g' (el_secs el')) <-> In j idxs) /\
         (StronglySorted N.lt idxs -> seg_members g' (el_secs el') = idxs)).
Proof.
  intros el h0 g bound ms. cbv zeta. intros Hh Hs Hnsec Hlen Hne Hos Hty Hnd HF Hauto Hdom Hb64 Hcls Hbg Hal Hbud Hidx Htls Hnz Hfree.
  assert (O : oneseg el h0 g bound ms) by (constructor; assumption).
  destruct (oneseg_laid el h0 g bound ms O) as (el' & h' & g' & ss & pos1 & pos2 & L).
  exists el', g'. split; [exact (ld_layout L)|]. split; [exact (ld_segs L)|]. split; [exact (ld_sections L)|].
  split; [exact (indexed_relaid _ _ (ld_relaid L) 0 Hidx)|exact (laid_members O L Hidx Htls Hnz Hfree)].
Qed.
Print Assumptions C06_reload_recovers_members_one_segment.

(* non-vacuity: ELF32, a PT_LOAD segment at 0x8048004 (align 0x1000) holding two program sections, a free section behind *)
Definition ex1_ms (i al sz : N) : section :=
  with_index (with_flags (with_size (with_addralign (with_type (new_section C32) 1) al) sz) 2) i.
Definition ex1_seg : segment :=
  seg_add_section_index (seg_add_section_index (seg_set (seg_set (seg_set (new_segment C32) GType 1) GVaddr 134512644) GAlign 4096) 1 16) 2 4.
Example C06_one_segment_example :
  let fs (i : N) := with_index (with_size (with_addralign (with_type (new_section C32) 1) 1) 7) i in
  let el := with_segs (with_secs (with_hdr (empty_elfio false) (Some (new_header C32 LSB)))
                                 [ex1_ms 0 0 0; ex1_ms 1 16 5; ex1_ms 2 4 3; fs 3]) [ex1_seg] in
  exists el', layout el = Ok (el', true) /\ layout el' = Ok (el', true) /\ map sh_offset (el_secs el') = [0; 4112; 4120; 4123] /\
              Forall auto_member [ex1_ms 1 16 5; ex1_ms 2 4 3].
Proof.
  eexists. split; [vm_compute; reflexivity|]. split; [vm_compute; reflexivity|]. split; [vm_compute; reflexivity|].
  repeat constructor; vm_compute; discriminate.
Qed.

Example C06_one_segment_members_example :
  let fs (i : N) := with_index (with_size (with_addralign (with_type (new_section C32) 1) 1) 7) i in
  let el := with_segs (with_secs (with_hdr (empty_elfio false) (Some (new_header C32 LSB)))
                                 [ex1_ms 0 0 0; ex1_ms 1 16 5; ex1_ms 2 4 3; fs 3]) [ex1_seg] in
  exists el' g', layout el = Ok (el', true) /\ el_segs el' = [g'] /\ seg_members g' (el_secs el') = [1; 2] /\
                 g_sections ex1_seg = [1; 2] /\ p_vaddr ex1_seg + p_memsz g' < 2 ^ 64 /\
                 is_alloc (ex1_ms 0 0 0) /\ sh_addr (ex1_ms 0 0 0) < p_vaddr ex1_seg /\ ~ is_alloc (fs 3).
Proof.
  eexists _, _. split; [vm_compute; reflexivity|]. split; [reflexivity|]. vm_compute. repeat split; try reflexivity. discriminate.
Qed.

(* evaluation (a test, not a theorem): the one-segment object above, saved twice from its fresh state into an
   unbounded stream: same verdict, same bytes, and the second save leaves the object the first one left *)
Example C06_one_segment_two_saves :
  let fs (i : N) := with_index (with_size (with_addralign (with_type (new_section C32) 1) 1) 7) i in
  let el := with_segs (with_secs (with_hdr (empty_elfio false) (Some (new_header C32 LSB)))
                                 [ex1_ms 0 0 0; ex1_ms 1 16 5; ex1_ms 2 4 3; fs 3]) [ex1_seg] in
  match save (fun _ => 0) el (new_ostream None) with
  | Ok (el1, os1, ok1) =>
      ok1 = true /\ lenN (os_bytes os1) = 4304 /\
      match save (fun _ => 0) el1 (new_ostream None) with
      | Ok (el2, os2, ok2) => ok2 = true /\ os_bytes os2 = os_bytes os1 /\ el2 = el1
      | Fault _ => False
      end
  | Fault _ => False
  end.
Proof. vm_compute. repeat split; reflexivity. Qed.

Definition mk (i ty al sz : N) : section :=
  with_index (with_size (with_addralign (with_type (new_section C64) ty) al) sz) i.
Definition ex_el : elfio :=
  with_secs (with_hdr (empty_elfio false) (Some (new_header C64 MSB)))
            [mk 0 0 0 0; mk 1 1 4 7; mk 2 8 32 64; mk 3 1 16 1].
Example C06_example :
  exists el', layout ex_el = Ok (el', true) /\ layout el' = Ok (el', true) /\
              map sh_offset (el_secs el') = [0; 64; 96; 96].
Proof. eexists. split; [vm_compute; reflexivity|]. split; vm_compute; reflexivity. Qed.
