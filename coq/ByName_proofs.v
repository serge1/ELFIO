(* ByName_proofs.v — C09: symbol lookup by name.  On an object whose symbol, string and hash sections
   no longer change under data requests ("quiet": the first get_data() has happened, or loading is off),
   get_symbol( name, ... ) answers exactly as a linear scan of the table would — whatever the hash table
   that accompanies the symbol table contains: a hash hit is accepted only after the name was compared,
   and a miss falls back to the scan. *)
From ElfioV Require Import Bytes Mem Stream SectionData Elfio Accessors.
Local Open Scope N_scope.

(* a data request leaves the section as it is *)
Definition quiet (s : section) : Prop := negb (s_loaded s) && s_can_load s = false.

Section ByName.
  Variable junk : N -> N.

  Lemma el_sec_get_data_quiet el i s : get_sec el i = Some s -> quiet s -> el_sec_get_data junk el i = Ok (el, s_data s).
  Proof.
    intros Hg Hq. unfold el_sec_get_data. rewrite Hg. unfold sec_get_data. unfold quiet in Hq. rewrite Hq. cbn [bind].
    unfold upd_sec. unfold get_sec in Hg. rewrite (updN_same _ _ _ Hg). destruct el; reflexivity.
  Qed.

  Lemma sec_data_quiet el i s : get_sec el i = Some s -> quiet s -> sec_data junk el i = Ok (el, s_data s, s).
  Proof. intros Hg Hq. unfold sec_data. rewrite (el_sec_get_data_quiet el i s Hg Hq). cbn [bind]. now rewrite Hg. Qed.

  Lemma sec_data_same {el i e p s} :
    (forall s0, get_sec el i = Some s0 -> quiet s0) -> sec_data junk el i = Ok (e, p, s) -> e = el.
  Proof.
    intros Hq H. destruct (get_sec el i) as [s0|] eqn:Hg.
    - rewrite (sec_data_quiet el i s0 Hg (Hq s0 eq_refl)) in H. now injection H as <- _ _.
    - unfold sec_data, el_sec_get_data in H. rewrite Hg in H. discriminate.
  Qed.

  (* every data request leaves the section quiet: either it is marked loaded, or loading is switched off *)
  Lemma sec_load_data_ok_loaded {st t s st1 s1 al} : sec_load_data junk st t s = Ok (st1, s1, true, al) -> s_loaded s1 = true.
  Proof.
    unfold sec_load_data. intro H.
    destruct (_ <? _); [discriminate|]. destruct (_ || _); [discriminate|].
    destruct (s_data s); [now injection H as _ <- _|].
    destruct (_ || _); [now injection H as _ <- _|]. destruct (_ <? _); [discriminate|].
    destruct (_ =? 0); [now injection H as _ <- _|].
    destruct st as [st0|]; [|discriminate]. destruct (read _ _) as [st2 got].
    destruct (_ =? _); [now injection H as _ <- _|discriminate].
  Qed.
  Lemma sec_get_data_makes_quiet {st t s st1 s1 al} : sec_get_data junk st t s = Ok (st1, s1, al) -> quiet s1.
  Proof.
    unfold sec_get_data, quiet. destruct (negb (s_loaded s) && s_can_load s) eqn:E; intro H.
    - apply bind_Ok in H as ([[[st' s'] ok] al'] & L & H). injection H as _ <- _. destruct ok.
      + rewrite (sec_load_data_ok_loaded L). reflexivity.
      + destruct s'; cbn. apply andb_false_r.
    - injection H as _ <- _. exact E.
  Qed.
  Lemma quiet_after_get_data el i el1 p s1 : el_sec_get_data junk el i = Ok (el1, p) -> get_sec el1 i = Some s1 -> quiet s1.
  Proof.
    unfold el_sec_get_data. destruct (get_sec el i) as [s|] eqn:Hg; [|discriminate]. intros H Hg1.
    apply bind_Ok in H as ([[st1 s2] al] & E & H). injection H as <- _.
    unfold get_sec, upd_sec in *. cbn in Hg1. rewrite nth_optN_updN_same in Hg1 by exact (nth_optN_lt _ _ _ Hg).
    injection Hg1 as <-. exact (sec_get_data_makes_quiet E).
  Qed.

  (* the sections a symbol table look-up touches are quiet *)
  Definition quiet_symtab (el : elfio) (symsec : N) : Prop :=
    exists s, get_sec el symsec = Some s /\ quiet s /\
              (forall st, get_sec el (wrap16 (sh_link s)) = Some st -> quiet st).

  Lemma lookup_str_same {el k idx el1 r} :
    (forall st, get_sec el k = Some st -> quiet st) -> lookup_str junk el k idx = Ok (el1, r) -> el1 = el.
  Proof.
    intros Hq H. unfold lookup_str in H. destruct (get_sec el k) as [st|] eqn:Hg; [|now injection H as <- _].
    apply bind_Ok in H as ([[e1 p] s] & Es & H). rewrite <- Hg in Hq. apply (sec_data_same Hq) in Es as ->.
    apply bind_Ok in H as (r0 & _ & H). now injection H as <- _.
  Qed.

  Lemma get_symbol_same {el symsec i el1 r} :
    quiet_symtab el symsec -> get_symbol junk el symsec i = Ok (el1, r) -> el1 = el.
  Proof.
    intros (s & Hg & Hq & Hl) H. unfold get_symbol in H. rewrite (sec_data_quiet el symsec s Hg Hq) in H. cbn [bind] in H.
    apply bind_Ok in H as ([y|] & _ & H); [|now injection H as <- _].
    apply bind_Ok in H as ([el2 nm] & El & H). apply (lookup_str_same Hl) in El as ->. now injection H as <- _.
  Qed.

  Lemma get_symbol_unnamed el symsec i el1 v :
    get_symbol junk el symsec i = Ok (el1, Some v) -> sv_named v = false -> sv_name v = [].
  Proof.
    intros H Hn. unfold get_symbol in H.
    apply bind_Ok in H as ([[e1 p] s] & _ & H). apply bind_Ok in H as ([y|] & _ & H); [|discriminate].
    apply bind_Ok in H as ([el2 nm] & _ & H). injection H as _ <-. cbn in *. destruct nm; [discriminate|reflexivity].
  Qed.

  (* "the symbol at some index is v" *)
  Definition is_symbol (el : elfio) (symsec : N) (v : symview) : Prop :=
    exists y, get_symbol junk el symsec y = Ok (el, Some v).

  (* what a hash look-up may answer on a quiet object: the object as it was and, if anything, a symbol of that name *)
  Definition answer (el : elfio) (symsec : N) (name : bytes) (x : elfio * option symview) : Prop :=
    let '(el1, r) := x in el1 = el /\ forall v, r = Some v -> is_symbol el symsec v /\ sv_name v = name.

  Lemma answer_miss el symsec name x : Ok (el, None) = Ok x -> answer el symsec name x.
  Proof. intros [= <-]. split; [reflexivity|discriminate]. Qed.

  (* what the walk carries: when the carried name is the queried one, the carried attributes are those of a symbol *)
  Definition carried_ok (el : elfio) (symsec : N) (name : bytes) (cur : symview) : Prop :=
    sv_name cur = name -> is_symbol el symsec cur.

  Lemma walk_get_step {el symsec name y cur el1 cur1 fl} :
    quiet_symtab el symsec -> walk_get junk el symsec y cur = Ok (el1, cur1, fl) -> sv_name cur <> name ->
    el1 = el /\ carried_ok el symsec name cur1.
  Proof.
    intros Q H Hc. unfold walk_get in H. apply bind_Ok in H as ([e1 r] & Eg & H).
    pose proof (get_symbol_same Q Eg) as ->.
    destruct r as [v|]; injection H as <- <- _; (split; [reflexivity|]); intro Hn; [|contradiction].
    destruct (sv_named v); [exists y; exact Eg|contradiction].
  Qed.

  Lemma sysv_walk_sound {fuel hp enc name nbucket nchain} : forall {el symsec y steps cur el1 cur1},
    quiet_symtab el symsec -> carried_ok el symsec name cur ->
    sysv_walk junk fuel el symsec hp enc name nbucket nchain y steps cur = Ok (el1, cur1) ->
    el1 = el /\ carried_ok el symsec name cur1.
  Proof.
    induction fuel as [|u f IH]; intros el symsec y steps cur el1 cur1 Q C H; cbn [sysv_walk] in H;
      (destruct (negb (bytes_eqb (sv_name cur) name) && negb (y =? 0) && (y <? nchain) && (steps <? nchain)) eqn:Ec;
       [|now injection H as <- <-]); [discriminate|].
    assert (Hne : sv_name cur <> name).
    { repeat (apply andb_true_iff in Ec; destruct Ec as [Ec _]). apply negb_true_iff in Ec.
      intro E. apply bytes_eqb_spec in E. congruence. }
    apply bind_Ok in H as (y1 & _ & H). apply bind_Ok in H as ([[e1 c1] fl] & Ew & H).
    destruct (walk_get_step Q Ew Hne) as [-> C1].
    eapply IH; eauto.
  Qed.

  Theorem hash_lookup_sound {el symsec hashsec name x} :
    quiet_symtab el symsec -> (forall hs, get_sec el hashsec = Some hs -> quiet hs) -> name <> [] ->
    hash_lookup junk el symsec hashsec name = Ok x -> answer el symsec name x.
  Proof.
    intros Q Qh Hne H. unfold hash_lookup in H.
    apply bind_Ok in H as ([[e1 hp] hs] & Es & H). apply (sec_data_same Qh) in Es as ->.
    destruct hp as [hb|]; [|now apply answer_miss].
    destruct (sh_size hs <? 8); [now apply answer_miss|].
    apply bind_Ok in H as (nbucket & _ & H). apply bind_Ok in H as (nchain & _ & H).
    destruct (_ || _); [now apply answer_miss|].
    apply bind_Ok in H as (y & _ & H). apply bind_Ok in H as ([[e2 cur] fl] & Ew & H).
    destruct (walk_get_step Q Ew (fun E => Hne (eq_sym E))) as [-> C1].
    apply bind_Ok in H as ([e3 cur1] & Es2 & H).
    destruct (sysv_walk_sound Q C1 Es2) as [-> C2].
    destruct (bytes_eqb (sv_name cur1) name) eqn:Eb; [|now apply answer_miss].
    injection H as <-. apply bytes_eqb_spec in Eb. split; [reflexivity|]. intros v [= <-]. auto.
  Qed.

  Lemma gnu_walk_sound {fuel hp enc name chains_off chains_num symoffset hash} : forall {el symsec ci ch symname x},
    quiet_symtab el symsec -> symname <> name ->
    gnu_walk junk fuel el symsec hp enc name chains_off chains_num symoffset hash ci ch symname = Ok x ->
    answer el symsec name x.
  Proof.
    induction fuel as [|u f IH]; intros el symsec ci ch symname x Q Hs H; [discriminate|].
    cbn [gnu_walk] in H. apply bind_Ok in H as ([[e1 hit] sn] & E1 & H).
    (* the chain entry: a hit is a symbol of that name; otherwise the carried name is still not the queried one *)
    assert (S1 : answer el symsec name (e1, hit) /\ (hit = None -> sn <> name)).
    { destruct (N.shiftr ch 1 =? N.shiftr hash 1); [|injection E1 as <- <- <-; split; [now apply answer_miss|auto]].
      apply bind_Ok in E1 as ([e2 r] & Eg & E1). pose proof (get_symbol_same Q Eg) as ->.
      destruct r as [w|]; injection E1 as <- <- <-; [|split; [now apply answer_miss|auto]].
      destruct (bytes_eqb name _) eqn:Eb.
      - apply bytes_eqb_spec in Eb. split; [|discriminate]. split; [reflexivity|]. intros v [= <-].
        destruct (sv_named w) eqn:En; [|congruence]. split; [eexists; exact Eg|congruence].
      - split; [now apply answer_miss|]. intros _ E. symmetry in E. apply bytes_eqb_spec in E. congruence. }
    destruct S1 as [[-> Hh] Hs1].
    destruct hit as [v|]; [injection H as <-; split; [reflexivity|exact Hh]|].
    destruct (N.land ch 1 =? 1); [now apply answer_miss|]. destruct (chains_num <=? _); [now apply answer_miss|].
    apply bind_Ok in H as (c2 & _ & H). exact (IH _ _ _ _ _ _ Q (Hs1 eq_refl) H).
  Qed.

  Theorem gnu_hash_lookup_sound {el symsec hashsec name x} :
    quiet_symtab el symsec -> (forall hs, get_sec el hashsec = Some hs -> quiet hs) -> name <> [] ->
    gnu_hash_lookup junk el symsec hashsec name = Ok x -> answer el symsec name x.
  Proof.
    intros Q Qh Hne H. unfold gnu_hash_lookup in H.
    apply bind_Ok in H as ([[e1 hp] hs] & Es & H). apply (sec_data_same Qh) in Es as ->.
    destruct hp as [hb|]; [|now apply answer_miss].
    destruct (sh_size hs <? 16); [now apply answer_miss|].
    apply bind_Ok in H as (nbuckets & _ & H). apply bind_Ok in H as (symoffset & _ & H).
    apply bind_Ok in H as (bloom_size & _ & H). apply bind_Ok in H as (bloom_shift & _ & H).
    destruct (_ || _); [now apply answer_miss|].
    apply bind_Ok in H as (bw & _ & H). destruct (negb _); [now apply answer_miss|].
    apply bind_Ok in H as (bv & _ & H). destruct (symoffset <=? bv); [|now apply answer_miss].
    destruct (_ <=? _); [now apply answer_miss|].
    apply bind_Ok in H as (ch & _ & H). exact (gnu_walk_sound Q (fun E => Hne (eq_sym E)) H).
  Qed.

  Definition no_match (el : elfio) (symsec : N) (name : bytes) (lo hi : N) : Prop :=
    forall k w, lo <= k < hi -> get_symbol junk el symsec k = Ok (el, Some w) -> sv_name w <> name.

  Definition first_match (el : elfio) (symsec : N) (name : bytes) (i n : N) (r : option symview) : Prop :=
    match r with
    | Some v => exists j, i <= j < n /\ get_symbol junk el symsec j = Ok (el, Some v) /\ sv_name v = name /\
                          no_match el symsec name i j
    | None => no_match el symsec name i n
    end.

  Lemma first_match_skip {el symsec name i n r0 r} :
    get_symbol junk el symsec i = Ok (el, r0) -> (forall w, r0 = Some w -> sv_name w <> name) ->
    first_match el symsec name (i + 1) n r -> first_match el symsec name i n r.
  Proof.
    intros Eg Hno Hr.
    assert (Hext : forall hi, no_match el symsec name (i + 1) hi -> no_match el symsec name i hi).
    { intros hi Hm k w Hk Hgk. destruct (N.eq_dec k i) as [->|Hki].
      - rewrite Eg in Hgk. injection Hgk as Hr0. now apply (Hno w Hr0).
      - apply (Hm k w); [lia|exact Hgk]. }
    destruct r as [v|]; [|now apply Hext].
    destruct Hr as (j & Hj & Gj & Nj & Mj). exists j. repeat split; try lia; auto.
  Qed.

  Lemma scan_names_spec fuel name : forall el symsec i n el1 r,
    quiet_symtab el symsec ->
    scan_names junk fuel el symsec name i n = Ok (el1, r) ->
    el1 = el /\ first_match el symsec name i n r.
  Proof.
    induction fuel as [|u f IH]; intros el symsec i n el1 r Q H; cbn [scan_names] in H;
      (destruct (N.ltb_spec i n) as [Hi|Hi]; [|injection H as <- <-; split; [reflexivity|]; intros k w Hk; lia]);
      [discriminate|].
    apply bind_Ok in H as ([e1 r0] & Eg & H). pose proof (get_symbol_same Q Eg) as ->.
    destruct r0 as [w|]; [destruct (bytes_eqb (sv_name w) name) eqn:Eb|].
    - injection H as <- <-. apply bytes_eqb_spec in Eb. split; [reflexivity|].
      exists i. repeat split; try lia; auto. intros k w' Hk. lia.
    - destruct (IH _ _ _ _ _ _ Q H) as [-> Hr]. split; [reflexivity|]. apply (first_match_skip Eg); [|exact Hr].
      intros w' [= <-] E. apply bytes_eqb_spec in E. congruence.
    - destruct (IH _ _ _ _ _ _ Q H) as [-> Hr]. split; [reflexivity|]. now apply (first_match_skip Eg).
  Qed.

  Theorem get_symbol_by_name_spec el symsec s name el1 r :
    get_sec el symsec = Some s -> quiet_symtab el symsec ->
    (forall hi hs h, find_hash (el_secs el) 0 (s_index s) = Some (hi, hs) -> get_sec el hi = Some h -> quiet h) ->
    name <> [] ->
    get_symbol_by_name junk el symsec name = Ok (el1, r) ->
    el1 = el /\
    match r with
    | Some v => is_symbol el symsec v /\ sv_name v = name
    | None => no_match el symsec name 0 (get_symbols_num el s)
    end.
  Proof.
    intros Hg Q Qh Hne H. unfold get_symbol_by_name in H. rewrite Hg in H.
    apply bind_Ok in H as ([e1 r1] & Hs & H).
    (* the hash section, whatever it holds *)
    assert (St : answer el symsec name (e1, r1)).
    { destruct (find_hash (el_secs el) 0 (s_index s)) as [[hi hs]|]; [|now apply answer_miss].
      specialize (Qh hi hs). destruct (hi =? 0); [now apply answer_miss|].
      apply bind_Ok in Hs as ([e2 r2] & E1 & Hs).
      assert (S1 : answer el symsec name (e2, r2)).
      { destruct (sh_type hs =? SHT_HASH); [|now apply answer_miss].
        exact (hash_lookup_sound Q (fun h => Qh h eq_refl) Hne E1). }
      destruct S1 as [-> S1].
      destruct (_ || _); [|injection Hs as <- <-; split; [reflexivity|exact S1]].
      exact (gnu_hash_lookup_sound Q (fun h => Qh h eq_refl) Hne Hs). }
    destruct St as [-> S1].
    destruct r1 as [v|]; [injection H as <- <-; split; [reflexivity|now apply S1]|].
    rewrite Hg in H. destruct (scan_names_spec _ _ _ _ _ _ _ _ Q H) as [-> Hr]. split; [reflexivity|].
    destruct r as [v|]; [|exact Hr].
    destruct Hr as (j & _ & Gj & Nj & _). split; [exists j; exact Gj|exact Nj].
  Qed.

  (* with unique names the answer is THE symbol of that name, found or not exactly as by a linear scan *)
  Corollary get_symbol_by_name_unique el symsec s name el1 r :
    get_sec el symsec = Some s -> quiet_symtab el symsec ->
    (forall hi hs h, find_hash (el_secs el) 0 (s_index s) = Some (hi, hs) -> get_sec el hi = Some h -> quiet h) ->
    name <> [] ->
    (forall v w, is_symbol el symsec v -> is_symbol el symsec w -> sv_name v = sv_name w -> v = w) ->
    get_symbol_by_name junk el symsec name = Ok (el1, r) ->
    forall k w, k < get_symbols_num el s -> get_symbol junk el symsec k = Ok (el, Some w) -> sv_name w = name -> r = Some w.
  Proof.
    intros Hg Q Qh Hne Hu H k w Hk Gk Nk.
    destruct (get_symbol_by_name_spec el symsec s name el1 r Hg Q Qh Hne H) as [_ Hr].
    destruct r as [v|].
    - destruct Hr as [Iv Nv]. f_equal. apply Hu; [exact Iv|exists k; exact Gk|congruence].
    - exfalso. apply (Hr k w); [lia|exact Gk|exact Nk].
  Qed.
End ByName.
