(* Roundtrip_proofs.v — C05: what save() writes, load() reads back. *)
From ElfioV Require Import Bytes Mem Stream Stream_proofs SectionData Elfio Loader Load_proofs Data_proofs Codec_proofs Ostream_proofs Reader_proofs Layout_proofs Writer_proofs.
Local Open Scope N_scope.

Lemma slice_full_len (l : bytes) off n (bs : bytes) : sliceN l off n = bs -> lenN bs = n -> 0 < n -> off + n <= lenN l.
Proof.
  intros H HL Hn. assert (E : lenN (sliceN l off n) = n) by (rewrite H; exact HL).
  rewrite lenN_sliceN in E. lia.
Qed.

Lemma sec_file_off_plain s : sh_offset s < 2 ^ 63 -> sec_file_off [] s = sh_offset s.
Proof.
  intros H. unfold sec_file_off. cbn [xlat_apply]. rewrite to_signed64_small by exact H.
  unfold of_signed64. rewrite Z.mod_small by lia. lia.
Qed.

Section WithEnv.
  Variable junk : N -> N.

  (* a section header record written by a save is reported field by field by a
     load of the saved bytes *)
  Theorem written_section_header_reads_back os before after enc s (hpos : N) k idx lazy :
    stream_ok os -> good os ->
    plan_small (os_len os) (before ++ (hpos, shdr_bytes enc s) :: after) ->
    (forall w' i, In w' after -> in_range (hpos, shdr_bytes enc s) i = true -> in_range w' i = false) ->
    shdr_wf s -> hpos < 2 ^ 63 ->
    let content := os_bytes (exec_plan os (before ++ (hpos, shdr_bytes enc s) :: after)) in
    exists st' r al,
      section_load junk (open_istream k content) [] enc (with_index (new_section (s_cls s)) idx) (Z.of_N hpos) lazy = Ok (st', r, al) /\
      sh_name r = sh_name s /\ sh_type r = sh_type s /\ sh_flags r = sh_flags s /\ sh_addr r = sh_addr s /\
      sh_offset r = sh_offset s /\ sh_size r = sh_size s /\ sh_link r = sh_link s /\ sh_info r = sh_info s /\
      sh_addralign r = sh_addralign s /\ sh_entsize r = sh_entsize s /\ s_index r = idx.
  Proof.
    intros Hok Hg Hp Hdis Hwf H63. cbv zeta.
    pose proof (plan_slice_visible os before (hpos, shdr_bytes enc s) after Hok Hg Hp Hdis) as Hs. cbn [fst snd] in Hs.
    rewrite lenN_shdr_bytes in Hs.
    apply section_load_reports; try assumption; try reflexivity.
    cbn [is_content open_istream].
    apply (slice_full_len _ _ _ _ Hs); [apply lenN_shdr_bytes|destruct (s_cls s); cbn; lia].
  Qed.

  (* a data request on r stores d and the terminator byte *)
  Definition stores (st : istream) (r : section) (d : bytes) : Prop :=
    exists st1 s1, sec_load_data junk (Some st) [] r = Ok (Some st1, s1, true, [sh_size r + 1]) /\ s_data s1 = Some (d ++ [0]).

  (* whatever file holds bytes d at a section's offset: a data request on that section, loaded lazily from the
     file's header table, stores exactly those bytes *)
  Lemma data_read_back (file : bytes) st r (d : bytes) :
    sliceN file (sh_offset r) (sh_size r) = d -> lenN d = sh_size r -> 0 < lenN d ->
    sh_type r <> SHT_NULL -> sh_type r <> SHT_NOBITS -> s_data r = None -> s_stream_size r = lenN file ->
    is_fail st = false -> st_inv st -> is_content st = file -> lenN file < 2 ^ 63 ->
    stores st r d.
  Proof.
    intros Hs HL Hn T1 T2 Dr SSr Hf Hi Hcon H63.
    pose proof (slice_full_len _ _ _ _ Hs HL ltac:(lia)) as Hin.
    pose proof (sec_file_off_plain r ltac:(lia)) as Hoff.
    assert (Hl : sec_loadable [] (is_content st) r).
    { unfold sec_loadable. rewrite Hcon, Hoff, SSr. repeat split; auto; lia. }
    destruct (sec_load_data_complete junk st [] r Hf Hi Hl) as (st1 & s1 & E & D & _).
    exists st1, s1. split; [exact E|]. rewrite D, Hcon, Hoff, Hs. reflexivity.
  Qed.

  (* section data written by a save are the data a load of the saved bytes stores *)
  Theorem written_section_data_reads_back os before after (off : N) (d : bytes) k s :
    stream_ok os -> good os ->
    plan_small (os_len os) (before ++ (off, d) :: after) ->
    (forall w' i, In w' after -> in_range (off, d) i = true -> in_range w' i = false) ->
    let content := os_bytes (exec_plan os (before ++ (off, d) :: after)) in
    sh_offset s = off -> sh_size s = lenN d -> 0 < lenN d -> s_data s = None ->
    sh_type s <> SHT_NULL -> sh_type s <> SHT_NOBITS -> lenN content < 2 ^ 63 -> s_stream_size s = lenN content ->
    stores (open_istream k content) s d.
  Proof.
    intros Hok Hg Hp Hdis. cbv zeta. intros Ho Hz Hn Hd T1 T2 H63 Hss.
    pose proof (plan_slice_visible os before (off, d) after Hok Hg Hp Hdis) as Hs. cbn [fst snd] in Hs.
    apply data_read_back with (file := os_bytes (exec_plan os (before ++ (off, d) :: after))); try assumption; try reflexivity.
    - now rewrite Ho, Hz.
    - now symmetry.
  Qed.

  Lemma file_data_read_back (file : bytes) st s (b : bytes) r :
    sliceN file (sh_offset s) (sh_size s) = firstnN b (sh_size s) -> sh_size s <= lenN b ->
    csize s <> 0 -> same_hdr s r -> s_data r = None -> s_stream_size r = lenN file ->
    is_fail st = false -> st_inv st -> is_content st = file -> lenN file < 2 ^ 63 ->
    stores st r (firstnN b (sh_size s)).
  Proof.
    intros F2 Hdata Hc (_ & HT & _ & _ & HO & HZ & _).
    destruct (csize_carried s Hc) as (Ec & T1 & T2). rewrite Ec in Hc.
    assert (HL : lenN (firstnN b (sh_size s)) = sh_size s) by (rewrite lenN_firstnN; lia).
    apply data_read_back; rewrite ?HO, ?HZ, ?HT; try assumption. rewrite HL. lia.
  Qed.

  (* a file that holds, at shoff + es * index, the header record of every section of [secs]: loading its section
     header table (lazily) reports every one of them, in order *)
  Theorem headers_read_back (file : bytes) c enc shoff es secs fuel k :
    secs <> [] -> indexed_from 0 secs -> (forall s, In s secs -> s_cls s = c /\ shdr_wf s) -> es = shdr_size c ->
    (forall s, In s secs -> sliceN file (shoff + es * s_index s) (shdr_size (s_cls s)) = shdr_bytes enc s) ->
    shoff + lenN secs * es < 2 ^ 62 -> (length secs <= fuel)%nat ->
    exists st' loaded,
      load_sections_loop junk fuel (open_istream k file) [] c enc shoff es 0 (lenN secs) true [] [] = Ok (st', rev loaded, []) /\
      is_fail st' = false /\ st_inv st' /\ is_content st' = file /\ Forall2 same_hdr secs loaded /\
      (forall j r, nth_optN loaded j = Some r -> s_index r = wrap16 j).
  Proof.
    intros Hne Hidx Hcls Hes F1 H62 Hfuel.
    assert (Hslice : forall kk s, nth_optN secs kk = Some s ->
              sliceN file (shoff + (0 + kk) * es) (shdr_size c) = shdr_bytes enc s).
    { intros kk s Hn. pose proof (nth_optN_In _ _ _ Hn) as Hin.
      pose proof (indexed_nth _ _ _ _ Hidx Hn) as Hi. destruct (Hcls s Hin) as [Hc _].
      rewrite <- Hc, <- (F1 s Hin), Hi. f_equal. lia. }
    assert (Hlen : shoff + (0 + lenN secs) * es <= lenN file).
    { assert (E : lenN secs <> 0) by (destruct secs; [contradiction|rewrite lenN_cons; lia]).
      destruct (nth_optN_some secs (lenN secs - 1) ltac:(lia)) as (s & Hn).
      pose proof (Hslice _ _ Hn) as Hs.
      assert (HL : lenN (shdr_bytes enc s) = shdr_size c).
      { destruct (Hcls s (nth_optN_In _ _ _ Hn)) as [Hc _]. rewrite lenN_shdr_bytes, Hc. reflexivity. }
      pose proof (slice_full_len _ _ _ _ Hs HL ltac:(destruct c; cbn; lia)) as Hb.
      rewrite <- Hes in Hb. clear - Hb E. nia. }
    destruct (load_sections_loop_reports junk enc c shoff es secs fuel (open_istream k file) 0 [] [] eq_refl eq_refl)
      as (st' & loaded & E & Fl & I' & C & H2 & _ & HIX); try assumption; try lia; [apply Forall_forall; exact Hcls|].
    exists st', loaded. rewrite N.add_0_l, app_nil_r in E. repeat split; try assumption.
  Qed.
End WithEnv.

Section NosegRoundtrip.
  Variable junk : N -> N.
  Variables (h : ehdr) (secs : list section) (pos' : N).
  Hypothesis Hchain : chain secs (e_ehsize h) pos'.
  Hypothesis Hidx : indexed_from 0 secs.
  Hypothesis Hsh : pos' <= e_shoff h.
  Hypothesis Hcls : forall s, In s secs -> s_cls s = e_cls h /\ shdr_wf s.
  Hypothesis Hes : e_shentsize h = shdr_size (e_cls h).
  Hypothesis Hnull : forall s, In s secs -> s_index s = 0 -> csize s = 0.
  Hypothesis Hident : lenN (e_ident h) = 16.
  Hypothesis Heh : e_ehsize h = ehdr_size (e_cls h).
  Hypothesis Hdata : forall s b, In s secs -> s_data s = Some b -> sh_size s <= lenN b.
  Hypothesis Hsmall : plan_small 0 (noseg_plan h secs).
  Hypothesis Hshoff : e_shoff h + lenN secs * e_shentsize h < 2 ^ 62.

  Let file := os_bytes (exec_plan (new_ostream None) (noseg_plan h secs)).

  Lemma noseg_contents : file_holds file h secs.
  Proof.
    apply (noseg_file_contents h secs pos' Hchain); [|exact Hsh|exact Hdata|exact Hsmall].
    split; try assumption. intros s Hs. destruct (Hcls s Hs) as [-> _]. rewrite Hes. apply N.le_refl.
  Qed.

  (* loading the section header table of the saved file (lazily) reports every
     section header that was put in, in order *)
  Theorem noseg_headers_read_back : secs <> [] -> forall k,
    exists st' loaded,
      load_sections_loop junk (length secs) (open_istream k file) [] (e_cls h) (e_enc h) (e_shoff h) (e_shentsize h)
                         0 (lenN secs) true [] [] = Ok (st', rev loaded, []) /\
      is_fail st' = false /\ is_content st' = file /\ Forall2 (same_hdr) secs loaded.
  Proof.
    intros Hne k.
    destruct (headers_read_back junk file (e_cls h) (e_enc h) (e_shoff h) (e_shentsize h) secs (length secs) k Hne Hidx Hcls Hes
                (proj1 (proj2 noseg_contents)) Hshoff (le_n _)) as (st' & loaded & E & Fl & _ & C & H2 & _).
    exists st', loaded. auto.
  Qed.

  Theorem noseg_data_read_back st s b r :
    In s secs -> csize s <> 0 -> s_data s = Some b ->
    same_hdr s r -> s_data r = None -> s_stream_size r = lenN file ->
    is_fail st = false -> st_inv st -> is_content st = file -> lenN file < 2 ^ 63 ->
    stores junk st r (firstnN b (sh_size s)).
  (* Hshoff is not used; [using All] keeps it a premise, so that this theorem and the one above speak of the same saved file *)
  Proof using All.
    intros Hin Hc Hd. apply file_data_read_back; [exact (proj2 (proj2 noseg_contents) s b Hin Hc Hd)|exact (Hdata s b Hin Hd)|exact Hc].
  Qed.
End NosegRoundtrip.
