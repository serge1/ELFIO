(* Codec_proofs.v — the ELF header, section header and program header records:
   decoding the bytes the writer emits (= the gABI field order and widths in
   the file's byte order) gives back every field (C02/C03/C05). *)
From ElfioV Require Import Bytes Mem Stream SectionData Strings Elfio Table Loader.
From Coq Require Import ZifyBool ZifyN ZifyNat.
Local Open Scope N_scope.

Lemma dec_enc_fields_small e ws vs :
  Forall2 (fun w v => v < 256 ^ N.of_nat w) ws vs -> dec_fields e ws (enc_fields e ws vs) = vs.
Proof.
  induction 1 as [|w v ws vs Hv _ IH]; cbn [enc_fields dec_fields]; [reflexivity|].
  rewrite firstnN_app_exact, skipnN_app_exact by apply lenN_enc_uint. now rewrite dec_enc_uint_small, IH.
Qed.

Definition fw (c : cls) : N := 256 ^ (match c with C32 => 4 | C64 => 8 end).

(* every field fits its on-disk width *)
Definition ehdr_wf (h : ehdr) : Prop :=
  lenN (e_ident h) = 16 /\
  e_type h < 256 ^ 2 /\ e_machine h < 256 ^ 2 /\ e_version h < 256 ^ 4 /\
  e_entry h < fw (e_cls h) /\ e_phoff h < fw (e_cls h) /\ e_shoff h < fw (e_cls h) /\
  e_flags h < 256 ^ 4 /\ e_ehsize h < 256 ^ 2 /\ e_phentsize h < 256 ^ 2 /\ e_phnum h < 256 ^ 2 /\
  e_shentsize h < 256 ^ 2 /\ e_shnum h < 256 ^ 2 /\ e_shstrndx h < 256 ^ 2.

Theorem ehdr_roundtrip h : ehdr_wf h -> ehdr_of_bytes (e_cls h) (e_enc h) (ehdr_bytes h) = h.
Proof.
  intros (Hi & H). unfold ehdr_of_bytes, ehdr_bytes.
  rewrite skipnN_app_exact, firstnN_app_exact by exact Hi.
  rewrite dec_enc_fields_small; [destruct h; reflexivity|].
  unfold fw in H. destruct (e_cls h); repeat constructor; apply H.
Qed.

Definition shdr_wf (s : section) : Prop :=
  let w := fw (s_cls s) in
  sh_name s < 256 ^ 4 /\ sh_type s < 256 ^ 4 /\ sh_flags s < w /\ sh_addr s < w /\ sh_offset s < w /\ sh_size s < w /\
  sh_link s < 256 ^ 4 /\ sh_info s < 256 ^ 4 /\ sh_addralign s < w /\ sh_entsize s < w.

Theorem shdr_roundtrip enc s0 s :
  s_cls s0 = s_cls s -> shdr_wf s ->
  let r := sec_with_raw enc s0 (shdr_bytes enc s) in
  sh_name r = sh_name s /\ sh_type r = sh_type s /\ sh_flags r = sh_flags s /\ sh_addr r = sh_addr s /\
  sh_offset r = sh_offset s /\ sh_size r = sh_size s /\ sh_link r = sh_link s /\ sh_info r = sh_info s /\
  sh_addralign r = sh_addralign s /\ sh_entsize r = sh_entsize s.
Proof.
  intros Hc H. cbv zeta. unfold sec_with_raw, shdr_bytes. rewrite Hc.
  rewrite dec_enc_fields_small; [repeat split|].
  unfold shdr_wf, fw in H. destruct (s_cls s); repeat constructor; apply H.
Qed.

Definition phdr_wf (g : segment) : Prop :=
  let w := fw (g_cls g) in
  p_type g < 256 ^ 4 /\ p_flags g < 256 ^ 4 /\ p_offset g < w /\ p_vaddr g < w /\ p_paddr g < w /\
  p_filesz g < w /\ p_memsz g < w /\ p_align g < w.

Theorem phdr_roundtrip enc g0 g ss lz :
  g_cls g0 = g_cls g -> phdr_wf g ->
  let r := seg_of_raw enc g0 (phdr_bytes enc g) ss lz in
  p_type r = p_type g /\ p_flags r = p_flags g /\ p_offset r = p_offset g /\ p_vaddr r = p_vaddr g /\
  p_paddr r = p_paddr g /\ p_filesz r = p_filesz g /\ p_memsz r = p_memsz g /\ p_align r = p_align g.
Proof.
  intros Hc H. cbv zeta. unfold seg_of_raw, phdr_bytes. rewrite Hc. unfold phdr_wf, fw in H.
  destruct (g_cls g); (rewrite dec_enc_fields_small; [repeat split|repeat constructor; apply H]).
Qed.

Lemma lenN_ehdr_bytes h : lenN (e_ident h) = 16 -> lenN (ehdr_bytes h) = ehdr_size (e_cls h).
Proof.
  intros Hi. unfold ehdr_bytes. rewrite lenN_app, Hi, lenN_enc_fields by (destruct (e_cls h); reflexivity).
  destruct (e_cls h); reflexivity.
Qed.
Lemma lenN_shdr_bytes enc s : lenN (shdr_bytes enc s) = shdr_size (s_cls s).
Proof. unfold shdr_bytes. rewrite lenN_enc_fields by (destruct (s_cls s); reflexivity). destruct (s_cls s); reflexivity. Qed.
Lemma lenN_phdr_bytes enc g : lenN (phdr_bytes enc g) = phdr_size (g_cls g).
Proof. unfold phdr_bytes. destruct (g_cls g); rewrite lenN_enc_fields by reflexivity; reflexivity. Qed.

Lemma fill_struct_full default got : lenN default <= lenN got -> fill_struct default got = got.
Proof. intros H. unfold fill_struct. rewrite skipnN_all by exact H. apply app_nil_r. Qed.

(* membership of sections in segments (C02) *)
Theorem is_sect_in_seg_spec b sz sb se :
  b + sz < 2 ^ 64 ->
  is_sect_in_seg b sz sb se = true <-> (sb <= b /\ b + sz <= se /\ b < se).
Proof.
  intros H. unfold is_sect_in_seg, wrap64. rewrite wrap_small by exact H. lia.
Qed.
