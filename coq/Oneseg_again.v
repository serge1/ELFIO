(* Oneseg_again.v — C06 for objects with one segment of automatically addressed members: the layout half of a
   second save() re-derives exactly the object the first one left (same header, same segment, same sections),
   so the second file is the first. *)
From ElfioV Require Import Bytes Mem Stream SectionData SectionData_proofs Strings Elfio Table Loader Layout Layout_proofs Segment_proofs Oneseg_proofs.
From Coq Require Import ZifyBool ZifyN ZifyNat.
Local Open Scope N_scope.

Theorem layout_oneseg_twice el h0 g bound ms :
  oneseg el h0 g bound ms -> Forall (fun s => sh_size s <> 0) ms -> bound <= 2 ^ 63 ->
  0 < e_ehsize h0 + e_phentsize h0 ->
  exists el', layout el = Ok (el', true) /\ layout el' = Ok (el', true).
Proof.
  intros O Hnz Hb63 Hp0. pose proof (oneseg_member _ _ _ _ _ O) as Hmem_at.
  destruct O as [Hh Hs Hnsec Hlen Hne Hos Hty Hnd HF Hauto Hdom _ Hcls Hbg Hal Hbud].
  pose proof (Forall_of_nth_optN _ _ _ _ HF Hcls) as Hcls_ms.
  assert (Ha1 : (if 0 <? p_align g then p_align g else 1) <= p_align g + 1) by (destruct (0 <? p_align g); lia).
  rewrite (layout_single el h0 g Hh Hs Hnsec); [|apply calc_seg_align_noop; rewrite (proj2 (seg_sections_all g Hlen))|lia].
  2:{ intros i Hi. destruct (Hmem_at i Hi) as (s & Hsin & Hsi). rewrite Forall_forall in Hdom. eauto. }
  set (pos0 := e_ehsize h0 + e_phentsize h0) in *. set (n := lenN (el_secs el)) in *. set (h4 := hdr_prep1 h0 n).
  assert (Hgen0 : forall i, In i (g_sections g) -> nth_optN (repeatN false n) i = Some false).
  { intros i Hi. apply nth_optN_repeatN. destruct (Hmem_at i Hi) as (s & _ & Hsi). exact (nth_optN_lt _ _ _ Hsi). }
  pose proof (layout_one_segment_auto h4 g (el_secs el) (repeatN false n) pos0 bound ms Hlen Hne Hos Hty Hnd HF Hauto Hgen0
                ltac:(lia) Hal ltac:(lia)) as E1.
  cbv zeta in E1. destruct E1 as (A1 & A2 & _ & gen' & E1). rewrite E1. cbn [bind].
  set (ss := seg_start_at pos0 g) in *. set (R := place_members (p_vaddr g) ss ss ms) in *.
  set (g' := seg_laid g ss (snd R)) in *. set (secs1 := upd_list (el_secs el) (g_sections g) (fst R)) in *.
  set (f := lfs_local (sec_without_segment [g']) 0 secs1 (snd R)).
  set (pos3 := add64 (snd f) (16 - snd f mod 16)).
  set (el' := mkElfio (Some (hdr_set h4 HShoff pos3)) (fst f) [g'] (el_xlat el) pos3 (el_compr el) (el_stream el)).
  exists el'. split; [reflexivity|].
  destruct (place_members_bounds (p_vaddr g) ss ms ss) as [B1 B2]. fold R in B1, B2.
  destruct (seg_laid_fields g ss (snd R) bound Hbg B1 ltac:(lia)) as (_ & _ & _ & _ & G1 & _ & G3 & _). fold g' in G1, G3.
  assert (Hmem : forall k, In k (g_sections g) -> nth_optN (fst f) k = nth_optN secs1 k).
  { intros k Hk. apply lfs_local_member; rewrite G1; assumption. }
  rewrite (layout_single el' (hdr_set h4 HShoff pos3) g' eq_refl eq_refl); cbn [el_secs el_xlat el_compr el_stream el'].
  2:{ unfold f. rewrite lenN_lfs_local. unfold secs1. now rewrite lenN_upd_list. }
  2:{ apply calc_seg_align_noop. rewrite (proj2 (seg_sections_all g' ltac:(rewrite G1; exact Hlen))), G1, G3. intros i Hi.
      destruct (Forall2_both_In _ _ _ _ i HF (place_members_at (p_vaddr g) ss (el_secs el) (g_sections g) ms ss Hnd HF) Hi)
        as (s & Hsin & _ & (a & o & Hs1)).
      rewrite Forall_forall in Hdom. exists (with_offset (with_addr s a) o). rewrite (Hmem i Hi). split; [exact Hs1|exact (Hdom s Hsin)]. }
  2:{ unfold h4. destruct (hdr_prep1_fields h0 n) as (E1' & E2' & _). destruct h0; cbn in *. lia. }
  replace (lenN (fst f)) with n by (unfold f; rewrite lenN_lfs_local; unfold secs1; now rewrite lenN_upd_list).
  assert (Hh4 : hdr_prep1 (hdr_set h4 HShoff pos3) n = h4) by apply hdr_prep1_idem. rewrite !Hh4.
  replace (e_ehsize (hdr_set h4 HShoff pos3) + e_phentsize (hdr_set h4 HShoff pos3)) with pos0 by (destruct h0; reflexivity).
  destruct (layout_one_segment_again_frame h4 g (el_secs el) (repeatN false n) pos0 bound ms g' secs1 gen' (snd R) (fst f)
              Hlen Hne Hos Hty Hnd HF Hauto Hcls_ms Hnz Hgen0 Hb63 Hbg Hal ltac:(lia) Hp0 E1 Hmem) as (gen'' & ->).
  assert (Hf : lfs_local (sec_without_segment [g']) 0 (fst f) (snd R) = f) by apply lfs_local_again.
  cbn [bind]. rewrite !Hf. reflexivity.
Qed.

