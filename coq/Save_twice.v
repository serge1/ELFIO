(* Save_twice.v — C06 at the level of the written bytes: once the layout step is idempotent on an object
   (C06_second_layout_is_identity, C06_second_layout_is_identity_one_segment), saving the object that a first
   save() left writes exactly the same bytes and leaves exactly the same object. *)
From ElfioV Require Import Bytes Mem Stream SectionData Elfio Loader Layout Writer ByName_proofs Layout_proofs
     Writer_proofs.
Local Open Scope N_scope.

Section SaveTwice.
  Variable junk : N -> N.

  (* a data request leaves the segment (and the stream) as they are *)
  Definition seg_stable (st : option istream) (t : xlat) (g : segment) : Prop := seg_get_data st t g = Ok (st, g, []).
  (* save() re-writes the offset it finds: a no-op on offsets that fit the class *)
  Definition offset_norm (s : section) : Prop := s_index s = 0 \/ with_offset s (sh_offset s) = s.

  Lemma offset_fits_norm s : sh_offset s < 2 ^ xw (s_cls s) -> offset_norm s.
  Proof. intros H. right. now apply with_offset_same. Qed.

  Lemma force_sections_quiet st t : forall todo done, Forall quiet todo ->
    force_sections junk st t todo done = Ok (st, rev_append done todo).
  Proof.
    induction todo as [|s r IH]; intros done H; cbn [force_sections]; [reflexivity|].
    inversion H; subst. rewrite (sec_get_data_quiet junk) by assumption. cbn [bind]. rewrite IH by assumption. reflexivity.
  Qed.

  Lemma force_segments_stable st t : forall todo done, Forall (seg_stable st t) todo ->
    force_segments st t todo done = Ok (st, rev_append done todo).
  Proof.
    induction todo as [|g r IH]; intros done H; cbn [force_segments]; [reflexivity|].
    inversion H as [|? ? Hg Hr]; subst. unfold seg_stable in Hg. rewrite Hg. cbn [bind]. rewrite IH by assumption. reflexivity.
  Qed.

  Lemma section_plan_quiet compr enc st t s hpos st1 s1 w :
    quiet s -> offset_norm s -> section_plan junk compr enc st t s hpos = Ok (st1, s1, w) -> st1 = st /\ s1 = s.
  Proof.
    intros Q N H. unfold section_plan in H.
    assert (E : (if s_index s =? 0 then s else with_offset s (sh_offset s)) = s).
    { destruct N as [->|N]; [reflexivity|]. destruct (s_index s =? 0); [reflexivity|exact N]. }
    rewrite E in H.
    destruct (negb (sh_type s =? SHT_NOBITS) && negb (sh_type s =? SHT_NULL) && negb (sh_size s =? 0) &&
              match s_data s with Some _ => true | None => false end).
    - destruct (is_compressed compr s).
      { destruct (rd (s_data s) 0 (sh_size s)); cbn [bind] in H; [|discriminate]. now injection H as <- <- _. }
      rewrite (sec_get_data_quiet junk) in H by assumption. cbn [bind] in H.
      destruct (rd (s_data s) 0 (sh_size s)); cbn [bind] in H; [|discriminate]. now injection H as <- <- _.
    - now injection H as <- <- _.
  Qed.

  Lemma sections_plan_quiet compr enc h t st : forall todo done acc st1 secs1 plan,
    Forall quiet todo -> Forall offset_norm todo ->
    sections_plan junk compr enc h t st done todo acc = Ok (st1, secs1, plan) ->
    st1 = st /\ secs1 = rev_append done todo.
  Proof.
    induction todo as [|s r IH]; intros done acc st1 secs1 plan Q N H; cbn [sections_plan] in H.
    - injection H as <- <- _. split; reflexivity.
    - inversion Q as [|? ? Qs Qr]; subst. inversion N as [|? ? Ns Nr]; subst.
      destruct (section_plan junk compr enc st t s _) as [[[st2 s2] w]|] eqn:E; cbn [bind] in H; [|discriminate].
      destruct (section_plan_quiet _ _ _ _ _ _ _ _ _ Qs Ns E) as [-> ->].
      destruct (IH _ _ _ _ _ Qr Nr H) as [-> ->]. split; reflexivity.
  Qed.

  Lemma with_parts_id el : with_stream (with_segs (with_secs el (el_secs el)) (el_segs el)) (el_stream el) = el.
  Proof. destruct el; reflexivity. Qed.

  Lemma with_secs_stream_id el : with_stream (with_secs el (el_secs el)) (el_stream el) = el.
  Proof. destruct el; reflexivity. Qed.

  Theorem save_of_stable_object_is_repeatable el1 os r :
    os_bad os = false ->
    Forall quiet (el_secs el1) -> Forall offset_norm (el_secs el1) ->
    Forall (seg_stable (el_stream el1) (el_xlat el1)) (el_segs el1) ->
    layout el1 = Ok (el1, true) ->
    save junk el1 os = Ok r ->
    fst (fst r) = el1.
  Proof.
    intros Hos Q N S L H. unfold save in H. rewrite Hos in H.
    destruct (el_hdr el1) as [h0|] eqn:Hh; [|now injection H as <-].
    rewrite (force_sections_quiet _ _ _ [] Q) in H. cbn [bind rev_append] in H.
    rewrite (force_segments_stable _ _ _ [] S) in H. cbn [bind rev_append] in H.
    rewrite with_parts_id, L in H. cbn [bind negb] in H. rewrite Hh in H.
    destruct (save_header h0 (el_xlat el1) os) as [os1 ok1]. destruct ok1; cbn [negb] in H; [|now injection H as <-].
    destruct (sections_plan junk (el_compr el1) (e_enc h0) h0 (el_xlat el1) (el_stream el1) [] (el_secs el1) []) as [[[st1 secs1] plan]|] eqn:E;
      cbn [bind] in H; [|discriminate].
    destruct (sections_plan_quiet _ _ _ _ _ _ _ _ _ _ _ Q N E) as [-> ->]. cbn [rev_append] in H.
    rewrite with_secs_stream_id in H.
    destruct (os_abort (exec_plan os1 plan)); [discriminate|].
    destruct (os_bad (exec_plan os1 plan)); [now injection H as <-|].
    destruct (os_abort _); [discriminate|]. now injection H as <-.
  Qed.

  (* save() goes on from what the layout step returns: if that is el1, and el1 is stable under data requests and
     under the layout, saving el0 and saving el1 are the same computation *)
  Lemma save_via_layout el0 os el1 sta secsa stb segsb h :
    os_bad os = false -> el_hdr el0 = Some h ->
    force_sections junk (el_stream el0) (el_xlat el0) (el_secs el0) [] = Ok (sta, secsa) ->
    force_segments sta (el_xlat el0) (el_segs el0) [] = Ok (stb, segsb) ->
    layout (with_stream (with_segs (with_secs el0 secsa) segsb) stb) = Ok (el1, true) ->
    layout el1 = Ok (el1, true) ->
    Forall quiet (el_secs el1) -> Forall (seg_stable (el_stream el1) (el_xlat el1)) (el_segs el1) ->
    forall r, save junk el0 os = Ok r -> save junk el1 os = Ok r.
  Proof.
    intros Hos Hh F1 F2 L1 L2 Q S r.
    unfold save. rewrite Hos, Hh, F1. cbn [bind]. rewrite F2. cbn [bind]. rewrite L1. cbn [bind negb].
    destruct (el_hdr el1) as [h1|] eqn:Hh1; [|discriminate].
    rewrite (force_sections_quiet _ _ _ [] Q). cbn [bind rev_append].
    rewrite (force_segments_stable _ _ _ [] S). cbn [bind rev_append].
    rewrite with_parts_id, L2. cbn [bind negb]. rewrite Hh1. exact (fun H => H).
  Qed.

  (* saving twice: the first save() of el0 leaves el1 and os1; saving el1 into the same initial stream leaves el1 and os1 *)
  Theorem save_twice_identical el0 os el1 sta secsa stb segsb h :
    os_bad os = false -> el_hdr el0 = Some h ->
    force_sections junk (el_stream el0) (el_xlat el0) (el_secs el0) [] = Ok (sta, secsa) ->
    force_segments sta (el_xlat el0) (el_segs el0) [] = Ok (stb, segsb) ->
    layout (with_stream (with_segs (with_secs el0 secsa) segsb) stb) = Ok (el1, true) ->
    layout el1 = Ok (el1, true) ->
    Forall quiet (el_secs el1) -> Forall offset_norm (el_secs el1) ->
    Forall (seg_stable (el_stream el1) (el_xlat el1)) (el_segs el1) ->
    forall r, save junk el0 os = Ok r -> save junk el1 os = Ok (el1, snd (fst r), snd r).
  Proof.
    intros Hos Hh F1 F2 L1 L2 Q N S r H. apply (save_via_layout _ _ _ _ _ _ _ _ Hos Hh F1 F2 L1 L2 Q S) in H.
    pose proof (save_of_stable_object_is_repeatable el1 os r Hos Q N S L2 H) as E. rewrite H.
    destruct r as [[a b] c]. cbn in E |- *. now subst a.
  Qed.

  (* ... in the form the instances below use: no data request changes el0, the layout of el0 gives el1.
     [quiet] and [offset_norm] are both asked of el1: neither implies the other (one speaks of the data, one of
     the offset) *)
  Corollary save_twice el0 os el1 h :
    os_bad os = false -> el_hdr el0 = Some h ->
    Forall quiet (el_secs el0) -> Forall (seg_stable (el_stream el0) (el_xlat el0)) (el_segs el0) ->
    layout el0 = Ok (el1, true) -> layout el1 = Ok (el1, true) ->
    Forall quiet (el_secs el1) -> Forall offset_norm (el_secs el1) ->
    Forall (seg_stable (el_stream el1) (el_xlat el1)) (el_segs el1) ->
    forall r, save junk el0 os = Ok r -> save junk (fst (fst r)) os = Ok r.
  Proof.
    intros Hos Hh Q0 S0 L1 L2 Q N S r H.
    apply (save_via_layout el0 os el1 _ _ _ _ h Hos Hh (force_sections_quiet _ _ _ [] Q0) (force_segments_stable _ _ _ [] S0)
             ltac:(cbn [rev_append]; rewrite with_parts_id; exact L1) L2 Q S) in H.
    now rewrite (save_of_stable_object_is_repeatable el1 os r Hos Q N S L2 H).
  Qed.
End SaveTwice.

From ElfioV Require Import Oneseg_writer.

Lemma offset_norm_below secs secs' hi bound :
  Forall2 relaid secs secs' -> Forall (fun s => bound <= 2 ^ xw (s_cls s)) secs ->
  (forall s, In s secs' -> s_index s <> 0 -> sh_offset s + csize s <= hi) -> hi < bound -> Forall offset_norm secs'.
Proof.
  intros HR Hc P Hhi. apply Forall_forall. intros s' Hin. destruct (N.eq_dec (s_index s') 0) as [E0|E0]; [now left|].
  apply offset_fits_norm. specialize (P s' Hin E0). destruct (Forall2_In_r _ _ _ HR s' Hin) as (s & Hs & R).
  rewrite Forall_forall in Hc. specialize (Hc s Hs). rewrite (relaid_cls _ _ R). lia.
Qed.

Theorem save_twice_noseg junk el0 os h0 bound :
  os_bad os = false -> el_hdr el0 = Some h0 -> el_segs el0 = [] -> Forall quiet (el_secs el0) ->
  bound <= 2 ^ 64 -> Forall (fun s => bound <= 2 ^ xw (s_cls s)) (el_secs el0) ->
  e_ehsize h0 + budget (el_secs el0) + 16 < bound ->
  forall r, save junk el0 os = Ok r ->
    save junk (fst (fst r)) os = Ok r.
Proof.
  intros Hos Hh Hs Q Hb Hc Hbud.
  destruct (layout_noseg_laid el0 h0 bound Hh Hs Hb Hc Hbud) as (el1 & h' & pos' & L).
  pose proof (Forall2_impl keeps_relaid (nl_keeps L)) as HR.
  apply (save_twice junk el0 os el1 h0 Hos Hh Q); [|exact (nl_layout L)|exact (nl_again L)| | |].
  - rewrite Hs. constructor.
  - exact (Forall2_Forall relaid_quiet HR Q).
  - pose proof (nl_end L). apply (offset_norm_below _ _ pos' bound HR Hc); [|lia].
    intros s Hin E0. now destruct (chain_member _ _ _ s (nl_chain L) Hin E0) as (_ & B & _).
  - rewrite (nl_segs L). constructor.
Qed.
